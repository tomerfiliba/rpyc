(* Shared basics: Python outcomes, bytes, big-endian packing. No proofs of properties here. *)
From Coq Require Export List NArith ZArith Lia Bool.
From Coq.Strings Require Export Byte.
Export ListNotations.

(* ---- Python outcomes ---- *)
Inductive exn :=
| TypeError | ValueError | AttributeError | KeyError | EOFError | UnicodeError
| StructError | TimeoutError | StopIteration | IndexError | ZlibError | OtherError.

Inductive result (A : Type) := Ok (a : A) | Raise (e : exn) | OutOfFuel | Unmodelled.
Arguments Ok {A}. Arguments Raise {A}. Arguments OutOfFuel {A}. Arguments Unmodelled {A}.

Definition bind {A B} (r : result A) (f : A -> result B) : result B :=
  match r with Ok a => f a | Raise e => Raise e | OutOfFuel => OutOfFuel | Unmodelled => Unmodelled end.
Notation "'do' x <- r ; k" := (bind r (fun x => k)) (at level 200, x pattern, r at level 100, k at level 200).

(* ---- bytes ---- *)
Definition b_of (n : N) : byte :=
  match Byte.of_N (n mod 256) with Some b => b | None => x00 end.
Definition nlen {A} (l : list A) : N := N.of_nat (length l).

Definition be4 (n : N) : list byte :=
  [b_of (n / 16777216); b_of (n / 65536); b_of (n / 256); b_of n].
Definition un4 (a b c d : byte) : N :=
  (Byte.to_N a * 16777216 + Byte.to_N b * 65536 + Byte.to_N c * 256 + Byte.to_N d)%N.

Definition byte_eqb (a b : byte) : bool := Byte.eqb a b.

(* BytesIO.read(n): up to n bytes, never fails *)
Definition take_upto (n : N) (bs : list byte) : list byte * list byte :=
  if (nlen bs <=? n)%N then (bs, []) else (firstn (N.to_nat n) bs, skipn (N.to_nat n) bs).

(* ---- lemmas ---- *)
Lemma bind_Ok {A B} (r : result A) (f : A -> result B) b : bind r f = Ok b -> exists a, r = Ok a /\ f a = Ok b.
Proof. destruct r; try discriminate. eauto. Qed.

Lemma to_b_of n : (n < 256)%N -> Byte.to_N (b_of n) = n.
Proof.
  intros H. unfold b_of. rewrite N.mod_small by exact H.
  destruct (Byte.of_N n) eqn:E.
  - now apply Byte.to_of_N.
  - apply Byte.of_N_None_iff in E. lia.
Qed.

Lemma b_of_to b : b_of (Byte.to_N b) = b.
Proof.
  unfold b_of. pose proof (Byte.to_N_bounded b).
  rewrite N.mod_small by lia. now rewrite Byte.of_to_N.
Qed.

Lemma to_b_of_mod n : Byte.to_N (b_of n) = (n mod 256)%N.
Proof.
  unfold b_of. destruct (Byte.of_N (n mod 256)) eqn:E.
  - now apply Byte.to_of_N.
  - apply Byte.of_N_None_iff in E. pose proof (N.mod_upper_bound n 256). lia.
Qed.

Lemma un4_be4 n : (n < 4294967296)%N ->
  un4 (b_of (n / 16777216)) (b_of (n / 65536)) (b_of (n / 256)) (b_of n) = n.
Proof.
  intros H. unfold un4. rewrite !to_b_of_mod.
  change 16777216%N with (256 * 256 * 256)%N. change 65536%N with (256 * 256)%N. rewrite <- !N.div_div by discriminate.
  rewrite (N.mod_small (n / 256 / 256 / 256)) by (repeat apply N.div_lt_upper_bound; try discriminate; exact H).
  (* n from its four digits in base 256: three divisions with remainder, over which the goal is a ring identity *)
  pose proof (N.div_mod' n 256) as E0. pose proof (N.div_mod' (n / 256) 256) as E1. pose proof (N.div_mod' (n / 256 / 256) 256) as E2.
  revert E0 E1 E2. generalize (n / 256 / 256 / 256)%N, ((n / 256 / 256) mod 256)%N. generalize (n / 256 / 256)%N, ((n / 256) mod 256)%N.
  generalize (n / 256)%N, (n mod 256)%N. intros q1 r0 q2 r1 q3 r2 -> -> ->. ring.
Qed.

Lemma nlen_cons {A} (x : A) l : nlen (x :: l) = (nlen l + 1)%N.
Proof. unfold nlen. cbn [length]. lia. Qed.
Lemma nlen_app {A} (a b : list A) : nlen (a ++ b) = (nlen a + nlen b)%N.
Proof. unfold nlen. rewrite app_length. lia. Qed.
Lemma nlen_nil {A} (l : list A) : nlen l = 0%N -> l = [].
Proof. destruct l; [reflexivity|rewrite nlen_cons; lia]. Qed.

Lemma existsb_eqb_in {A} (eqb : A -> A -> bool) x l : (forall y, eqb x y = true <-> x = y) -> existsb (eqb x) l = true <-> In x l.
Proof.
  intros Heq. rewrite existsb_exists. split.
  - intros (y & Hi & He). apply Heq in He. now subst.
  - intros H. exists x. split; [exact H|]. now apply Heq.
Qed.

Lemma fold_left_inv {A B} (f : A -> B -> A) (Q : A -> Prop) l :
  (forall a b, In b l -> Q a -> Q (f a b)) -> forall a, Q a -> Q (fold_left f l a).
Proof. induction l as [|b l IH]; simpl; intros H a Ha; auto. Qed.

Lemma NoDup_snoc {A} (c : A) l : ~ In c l -> NoDup l -> NoDup (l ++ [c]).
Proof. intros Nin N. apply (NoDup_Add (Add_app c l [])). now rewrite app_nil_r. Qed.

Lemma take_upto_app (b rest : list byte) : take_upto (nlen b) (b ++ rest) = (b, rest).
Proof.
  unfold take_upto. destruct (N.leb_spec (nlen (b ++ rest)) (nlen b)) as [H|H].
  { unfold nlen in H. rewrite app_length in H. destruct rest; [now rewrite app_nil_r|simpl in H; lia]. }
  unfold nlen. rewrite Nat2N.id.
  rewrite firstn_app, Nat.sub_diag, firstn_all, skipn_app, Nat.sub_diag, skipn_all. simpl.
  now rewrite app_nil_r.
Qed.

(* keep binary arithmetic opaque to simpl/cbn so that lia sees it (never affects vm_compute/extraction) *)
Global Arguments N.add : simpl never.
Global Arguments N.sub : simpl never.
Global Arguments N.mul : simpl never.
Global Arguments N.div : simpl never.
Global Arguments N.modulo : simpl never.
Global Arguments Z.add : simpl never.
Global Arguments Z.sub : simpl never.
Global Arguments Z.mul : simpl never.
Global Arguments Z.div : simpl never.
Global Arguments Z.modulo : simpl never.
