(* C17 — Closing a server ends all its clients; departed clients leave nothing behind.

   Reading guide (model/Server.v).  A state [s] is the server's bookkeeping (flags, Server.clients, the pool's fd_to_conn /
   poll set / queue / worker slots, the listener's queue) plus one record per client connection (stage, what the client
   sent and whether it left, whether the server shut its socket down, Connection._closed, on_disconnect counter, endpoint).
   [reach s]: s is reachable from the freshly started server by ANY history of events: clients connecting, sending ANY
   bytes, leaving gracefully or abruptly; the accept loop, per-client workers, the pool's poller and workers taking their
   steps in any order; close() at any point, any number of times.  [quiescent s]: no thread of the server can take a step.
   [decomp]/[decode] are zlib and the request decoder: arbitrary functions.  [K] is the configuration: kind of server,
   authenticator or not, service class or instance, pool size, batch size, and the facts tools/pygen reads off
   rpyc/utils/server.py ([fx K]).  [close_reaches K] says whether close() reaches the connections being served: for the
   threaded and one-shot servers always, unless the authenticator replaces the socket and the worker does not re-register it
   (fact worker_tracks_served); by the generated facts for the thread pool and the forking server. *)
From V Require Import lib.Base model.Server proofs.ServerP proofs.ServerTie gen.Gen_server.

Section C17.
Variable decomp : list byte -> option (list byte).
Variable decode : list byte -> option req.
Variable K : cfg.
Notation step := (Server.step decomp decode K).
Notation reach := (Server.reach decomp decode K).
Notation quiescent := (Server.quiescent decomp decode K).

(* 1. close(), from any reachable state: the listener is closed and its queue reset, Server.clients is empty, and every
      connection that was being served (own worker, pool, inline authenticator) has had its socket shut down IN THAT STEP,
      so its client reads end-of-stream without any further step of the server *)
(* SCOPE: servers whose authenticator does NOT replace the accepted socket.  The model fixes a
   client's authentication behaviour when it connects and registers the served socket in one step with the end of authentication; it has no
   "the client finishes authenticating later" event and no handshake during which Server.clients holds only the detached original.  For
   socket-replacing authenticators (TLS) the behaviour is checked by the harness only: close() during the handshake misses the client
   (findings close-misses-client-in-authentication:*, close-leaves-client-connected:*:in-socket-replacing-handshake). *)
Theorem c17_close_ends_clients : forall s, reach s -> close_reaches K = true -> Server.accept_rechecks_closed (fx K) = true ->
  has_auth K && auth_replaces K = false ->
  let s' := server_close K s in
  step EClose s = Some s'
  /\ closed s' = true /\ active s' = false /\ lopen s' = false /\ clients s' = [] /\ backlog s' = []
  /\ forall c, serving (stg (conns s c)) = true -> shut (conns s' c) = true.
Proof. intros s R H _ _. split; [reflexivity|]. exact (close_ends_clients decomp decode K s R H). Qed.
(* The hypothesis on accept: the transition system takes accept() as ONE step.  That is faithful on a tree whose accept looks at _closed
   again after clients.add(sock): whichever way a concurrent close() interleaves, the socket is closed by one of the two
   (c17_accept_close_race_harmless).  On a tree without the re-check a close() that runs between the `active` test and clients.add
   misses the socket: c17_accept_close_race_refuted. *)
Theorem c17_accept_close_race_harmless : forall s c, Server.accept_rechecks_closed (fx K) = true -> closed s = true ->
  let s' := late_register K c s in
  clients s' = clients s /\ closed s' = true /\ shut (conns s' c) = true /\ stg (conns s' c) = Finished
  /\ forall x, x <> c -> conns s' x = conns s x.
Proof.
  intros s c Hf Hc. cbv zeta. unfold late_register. rewrite Hf, Hc. cbn. rewrite upd_same.
  split; [reflexivity|]. split; [exact Hc|]. split; [reflexivity|]. split; [reflexivity|].
  intros x Nx. now rewrite upd_other.
Qed.
Theorem c17_accept_close_race_refuted : kind K = Threaded -> Server.accept_rechecks_closed (fx K) = false ->
  let s0 := server_close K (with_backlog (w_connected K 1 AuthOk) []) in       (* the listener handed connection 1 out, then close() ran *)
  let s := late_register K 1 s0 in
  closed s = true /\ active s = false /\ clients s = [1] /\ stg (conns s 1) = Own /\ shut (conns s 1) = false.
Proof.
  generalize K. intros [k [f1 f2 f3 f4 f5 f6 f7 f8] au cls nw bt ar]. cbn [kind fx Server.accept_rechecks_closed]. intros -> ->. vm_compute. repeat split.
Qed.

(* 1'. each service's disconnect hook: never more than once; after close() no worker is blocked, and once the server's
       threads have nothing left to do nobody is being served and every connection that got a service instance has run
       its hook exactly once *)
Theorem c17_hook_at_most_once : forall s, reach s -> forall c,
  hooks (conns s c) <= 1 /\ (hooks (conns s c) = 1 <-> cclosed (conns s c) = true).
Proof. intros s R c. rewrite (hooks_closed decomp decode K s c R). destruct (cclosed (conns s c)); split; try lia; split; intros; try reflexivity; discriminate. Qed.
Theorem c17_after_close_workers_not_blocked : forall s, reach s -> closed s = true -> close_reaches K = true ->
  forall c, stg (conns s c) = Own \/ stg (conns s c) = Authing -> exists s', step (EWork c) s = Some s'.
Proof.
  intros s R Hc Hr c Hs. apply worker_unblocked; [exact Hs|right].
  apply (serving_shut_when_closed K s c (inv_reach decomp decode K s R) Hc Hr). destruct Hs as [-> | ->]; reflexivity.
Qed.
Theorem c17_after_close_hooks_ran : forall s, reach s -> closed s = true -> close_reaches K = true -> quiescent s ->
  forall c, serving (stg (conns s c)) = false
            /\ (authd (conns s c) = true -> hooks (conns s c) = 1 /\ stg (conns s c) = Finished).
Proof. exact (closed_and_quiet decomp decode K). Qed.

(* SCOPE: the model's initial state is the STARTED server; close() on a server that was created and never started is outside it
   (the thread pool raises AttributeError there: finding close-before-start-raises:pool:AttributeError, harness only). *)
(* 2. closing twice is harmless: close() is always enabled and the second one is the identity *)
Theorem c17_close_idempotent : forall s,
  step EClose s = Some (server_close K s) /\ server_close K (server_close K s) = server_close K s.
Proof. intros s. split; [reflexivity|apply close_idempotent]. Qed.

(* 3. departed clients leave nothing behind.  While the server runs: when its threads have nothing left to do, a client
      that has left is in no table.  (Server.clients of the thread pool: on a tree whose _accept_method discards the socket
      of a failed authentication; the pool's own tables: provided no worker thread has died and a worker is idle or the queue
      is empty -- a pool whose workers all sit in unfinished reads, or whose workers were killed, is C16's business.)  After close(): the tables close() is responsible for are empty. *)
Theorem c17_no_residue : forall s, reach s -> active s = true -> quiescent s ->
  forall c, gone (conns s c) = true ->
    stg (conns s c) <> Own /\ stg (conns s c) <> Authing
    /\ (clients_guard K -> mem c (clients s) = false)
    /\ (no_dead_worker s -> pool_has_idle_worker s \/ queue s = [] ->
        stg (conns s c) <> Pooled /\ mem c (fdmap s) = false /\ mem c (pollset s) = false /\ mem c (queue s) = false
        /\ cnt c (held s) = 0).
Proof. exact (no_residue_running decomp decode K). Qed.
Theorem c17_no_residue_closed : forall s, reach s -> closed s = true -> Server.accept_rechecks_closed (fx K) = true ->
  clients s = [] /\ backlog s = [] /\ (pool_fix K = true -> fdmap s = [] /\ pollset s = []) /\ active s = false /\ lopen s = false.
Proof. intros s R Hc _. exact (no_residue_closed decomp decode K s R Hc). Qed.
(* SCOPE: the model identifies a pooled connection with its table key, and keys are never reused.  The code keys its tables by descriptor
   NUMBER, which the kernel reuses; the identification is faithful on a tree whose _serve_requests drops a connection only if the table still
   holds THAT connection (translator fact pool_drop_checks_identity; otherwise finding good-client-dropped:pool:descriptor-number-reused,
   found by the harness op `hookhold`), and whose worker serves descriptor 0 like any other (fact pool_serves_fd_zero). *)
(* the pool's tables are consistent in every reachable running state: a registered descriptor is in exactly one of
   poll set / queue / a worker's hands, and nothing else is anywhere *)
Theorem c17_pool_single_owner : forall s, reach s -> active s = true ->
  forall c, cnt c (pollset s) + cnt c (queue s) + cnt c (held s) = if mem c (fdmap s) then 1 else 0.
Proof. intros s R A c. destruct (inv_reach decomp decode K s R) as (_ & _ & I3). exact (I3 A c). Qed.

(* 4. a one-shot server accepts at most one connection, no second accept is ever enabled, and it is closed as soon as
      that connection's worker has finished *)
Theorem c17_oneshot : forall s, kind K = OneShot -> reach s ->
  List.length (accepted s) <= 1
  /\ (accepted s <> [] -> step EAccept s = None)
  /\ (forall c, In c (accepted s) -> stg (conns s c) = Finished -> closed s = true /\ active s = false /\ lopen s = false).
Proof.
  intros s Ko R. destruct (oneinv_reach decomp decode K s Ko R) as [O (I1 & _ & _)]. destruct (inv1_flags K s I1) as [Fa Fl].
  destruct O as [[A B]|(c & A & B & F)]; rewrite A; cbn.
  - split; [lia|]. split; [congruence|intros c []].
  - split; [lia|]. split.
    + intros _. destruct (backlog s); [reflexivity|].
      destruct B as [B|B]; [rewrite B; cbn; now rewrite andb_false_r|now rewrite Fa, B].
    + intros c' [<-|[]] E. rewrite Fa, Fl, (F E). auto.
Qed.
(* ... and it does accept that one connection: a fresh one-shot server with a connection queued takes it.  (A first client that then
   fails authentication IS the one connection: the server closes after it, like after any other.) *)
Theorem c17_oneshot_accepts_first : forall s, kind K = OneShot -> reach s -> accepted s = [] -> closed s = false -> backlog s <> [] ->
  exists s', step EAccept s = Some s' /\ List.length (accepted s') = 1.
Proof.
  intros s Ko R Ha Hc Hb. destruct (oneinv_reach decomp decode K s Ko R) as [O (I1 & _ & _)].
  destruct (inv1_flags K s I1) as [Fa Fl]. rewrite Hc in Fa, Fl.
  assert (Bn : busy s = None) by (destruct O as [[_ B]|(c & A & _)]; [exact B|congruence]).
  destruct (backlog s) as [|c rest] eqn:Eb; [congruence|]. eexists.
  split; [apply (accept_enabled decomp decode K s c rest Eb); repeat split; assumption|].
  unfold accept. rewrite Ko. cbn. now rewrite Ha.
Qed.

(* Refutations: on a tree where close() does not reach the served connections, the history [connect; accept; close]
   ends in a closed, quiescent server whose client is still being served: socket never shut down, hook not run. *)
Theorem c17_close_ends_clients_refuted_pool : kind K = Pool -> Server.pool_close_drops (fx K) = false ->
  exists s, exec decomp decode K [EConnect 1 AuthOk; EAccept; EClose] (init K) = Some s
    /\ closed s = true /\ quiescent s
    /\ stg (conns s 1) = Pooled /\ shut (conns s 1) = false /\ gone (conns s 1) = false
    /\ authd (conns s 1) = true /\ hooks (conns s 1) = 0 /\ mem 1 (fdmap s) = true.
Proof.
  generalize K. intros [k [f1 f2 f3 f4 f5 f6 f7 f8] au cls nw bt ar]. cbn [kind fx Server.pool_close_drops]. intros -> ->.
  destruct au; (eexists; split; [vm_compute; reflexivity|]); repeat split;
    (apply quiescent_inactive; [reflexivity|intros [|[|c]]; reflexivity|intros w; apply nth_error_repeat_none]).
Qed.
Theorem c17_close_ends_clients_refuted_forking : kind K = Forking -> Server.fork_parent_keeps (fx K) = false -> has_auth K = false ->
  exists s, exec decomp decode K [EConnect 1 AuthOk; EAccept; EWork 1; EClose] (init K) = Some s
    /\ closed s = true /\ quiescent s
    /\ stg (conns s 1) = Own /\ shut (conns s 1) = false /\ gone (conns s 1) = false
    /\ authd (conns s 1) = true /\ hooks (conns s 1) = 0.
Proof.
  generalize K. intros [k [f1 f2 f3 f4 f5 f6 f7 f8] au cls nw bt ar]. cbn [kind fx has_auth Server.fork_parent_keeps]. intros -> -> ->.
  eexists. split; [vm_compute; reflexivity|]. repeat split.
  apply quiescent_inactive; [reflexivity|intros [|[|c]]; reflexivity|intros [|w]; now right].
Qed.
(* an authenticator that returns another socket object (TLS): unless the worker re-registers the socket it serves, Server.clients is left
   with the dead original and close() reaches nothing *)
Theorem c17_close_ends_clients_refuted_wrapping_auth : kind K = Threaded -> has_auth K = true -> auth_replaces K = true ->
  Server.worker_tracks_served (fx K) = false ->
  exists s, exec decomp decode K [EConnect 1 AuthOk; EAccept; EWork 1; EClose] (init K) = Some s
    /\ closed s = true /\ quiescent s
    /\ stg (conns s 1) = Own /\ shut (conns s 1) = false /\ gone (conns s 1) = false
    /\ authd (conns s 1) = true /\ hooks (conns s 1) = 0.
Proof.
  generalize K. intros [k [f1 f2 f3 f4 f5 f6 f7 f8] au cls nw bt ar]. cbn [kind fx has_auth auth_replaces Server.worker_tracks_served]. intros -> -> -> ->.
  eexists. split; [vm_compute; reflexivity|]. repeat split.
  apply quiescent_inactive; [reflexivity|intros [|[|c]]; reflexivity|intros [|w]; now right].
Qed.
Theorem c17_no_residue_refuted_pool_clients : kind K = Pool -> Server.pool_fail_discards (fx K) = false -> has_auth K = true ->
  exists s, exec decomp decode K [EConnect 1 AuthFail; EAccept; ELeave 1 false] (init K) = Some s
    /\ active s = true /\ quiescent s /\ gone (conns s 1) = true /\ mem 1 (clients s) = true.
Proof.
  (* the server is still running here, so [quiescent_inactive] does not apply: the state is given and each thread looked at *)
  intros Kp Pf Ha.
  exists (set_conn (pool_reject K 1 (w_accepted_base K 1 AuthFail)) 1 (k_gone (conns (pool_reject K 1 (w_accepted_base K 1 AuthFail)) 1))). split.
  - cbn. unfold accept, pool_reject, w_accepted_base, accept_base, w_connected. cbn. repeat (progress (rewrite ?Kp, ?Pf, ?Ha; cbn)). reflexivity.
  - unfold pool_reject. cbn. rewrite Pf. cbn. repeat split.
    intros e He. destruct e; try discriminate He; cbn; rewrite ?Kp; try reflexivity.
    + unfold Server.work. cbn. unfold upd. cbn. destruct (Nat.eqb c 1); reflexivity.
    + unfold Server.take_step. cbn. destruct (nth_error _ w) as [[?|]|]; reflexivity.
    + unfold Server.serve_step. cbn. rewrite Kp. destruct (nth_error_repeat_none (nworkers K) w) as [-> | ->]; reflexivity.
Qed.
End C17.
Print Assumptions c17_close_ends_clients.
Print Assumptions c17_hook_at_most_once.
Print Assumptions c17_after_close_workers_not_blocked.
Print Assumptions c17_after_close_hooks_ran.
Print Assumptions c17_close_idempotent.
Print Assumptions c17_no_residue.
Print Assumptions c17_no_residue_closed.
Print Assumptions c17_pool_single_owner.
Print Assumptions c17_oneshot.
Print Assumptions c17_close_ends_clients_refuted_pool.
Print Assumptions c17_close_ends_clients_refuted_forking.
Print Assumptions c17_no_residue_refuted_pool_clients.
Print Assumptions c17_accept_close_race_harmless.
Print Assumptions c17_accept_close_race_refuted.
Print Assumptions c17_oneshot_accepts_first.
Print Assumptions c17_close_ends_clients_refuted_wrapping_auth.

(* The model is the one the current source was translated to: control skeletons and facts (proofs/ServerTie.v). *)
Theorem c17_program_is_current :
  Gen_server.close_prog = Server.close_prog /\ Gen_server.accept_prog = Server.accept_prog_of Gen_server.accept_survives_oserror Gen_server.accept_rechecks_closed Gen_server.accept_survives_spawn_failure
  /\ Gen_server.worker_prog = Server.worker_prog_of Gen_server.worker_tracks_served /\ Gen_server.oneshot_prog = Server.oneshot_prog
  /\ Gen_server.threaded_prog = Server.threaded_prog /\ Gen_server.forking_prog = Server.forking_prog
  /\ (exists before, Gen_server.pool_close_prog = Server.pool_close_prog_of before Gen_server.pool_close_drops)
  /\ Gen_server.pool_accept_prog = Server.pool_accept_prog_of Gen_server.pool_fail_discards
  /\ Gen_server.drop_prog = Server.drop_prog /\ Gen_server.poll_result_prog = Server.poll_result_prog
  /\ Gen_server.serve_requests_prog = Server.serve_requests_prog_of Gen_server.pool_catches_base
  /\ Gen_server.conn_close_guarded = true /\ Gen_server.cleanup_runs_hook = true /\ Gen_server.serve_all_closes_in_finally = true.
Proof.
  pose proof tie_base_progs. pose proof tie_accept_methods. pose proof tie_pool_progs. pose proof tie_endpoint_facts.
  pose proof tie_pool_close. pose proof tie_pool_accept. intuition.
Qed.
Print Assumptions c17_program_is_current.

(* what the theorems say about THIS tree: which servers' close() reaches the clients *)
Definition this_tree (k : skind) : cfg :=
  {| kind := k; fx := gen_facts; has_auth := false; class_svc := true; nworkers := 2; batch := 10; auth_replaces := false |}.
Theorem c17_this_tree_threaded_oneshot : close_reaches (this_tree Threaded) = true /\ close_reaches (this_tree OneShot) = true.
Proof. split; reflexivity. Qed.
Print Assumptions c17_this_tree_threaded_oneshot.

(* non-vacuity *)
Definition no_z (b : list byte) : option (list byte) := None.
Definition no_d (b : list byte) : option req := None.
Definition KT (k : skind) (fix_ : bool) : cfg :=
  {| kind := k; fx := {| Server.pool_close_drops := fix_; Server.pool_fail_discards := fix_; Server.fork_parent_keeps := false; Server.pool_catches_base := false;
             Server.worker_tracks_served := false; Server.accept_survives_oserror := false; Server.accept_rechecks_closed := false;
             Server.accept_survives_spawn_failure := false |};
     has_auth := false; class_svc := true; nworkers := 2; batch := 10; auth_replaces := false |}.
Definition runx (K : cfg) (l : list event) : option st := exec no_z no_d K l (init K).

(* threaded: two clients are served, one leaves, close(): the other one is shut down at once; after the workers' steps
   both hooks have run once and nothing is left *)
Example c17_threaded_history :
  match runx (KT Threaded false) [EConnect 1 AuthOk; EConnect 2 AuthOk; EAccept; EAccept; EWork 1; EWork 2; ELeave 1 false; EWork 1; EClose] with
  | Some s => closed s = true /\ clients s = [] /\ shut (conns s 2) = true /\ hooks (conns s 1) = 1 /\ hooks (conns s 2) = 0
              /\ stg (conns s 2) = Own
              /\ match step no_z no_d (KT Threaded false) (EWork 2) s with
                 | Some s' => hooks (conns s' 2) = 1 /\ stg (conns s' 2) = Finished
                 | None => False
                 end
  | None => False
  end.
Proof. vm_compute. repeat split. Qed.
(* thread pool with the repaired close(): the served connection is closed by close() itself *)
Example c17_pool_fixed_history :
  match runx (KT Pool true) [EConnect 1 AuthOk; EAccept; EClose; EClose] with
  | Some s => closed s = true /\ fdmap s = [] /\ pollset s = [] /\ shut (conns s 1) = true /\ hooks (conns s 1) = 1 /\ stg (conns s 1) = Finished
  | None => False
  end.
Proof. vm_compute. repeat split. Qed.
(* thread pool: a client leaves; poller, worker: its descriptor is gone from every table *)
Example c17_pool_leave_history :
  match runx (KT Pool false) [EConnect 1 AuthOk; EAccept; ELeave 1 false; EPoll 1 false; ETake 0; EServe 0] with
  | Some s => active s = true /\ fdmap s = [] /\ pollset s = [] /\ queue s = [] /\ workers s = [None; None] /\ hooks (conns s 1) = 1
  | None => False
  end.
Proof. vm_compute. repeat split. Qed.
(* one-shot: the second client is never accepted; the server closes itself when the first one has left *)
Example c17_oneshot_history :
  match runx (KT OneShot false) [EConnect 1 AuthOk; EConnect 2 AuthOk; EAccept; EWork 1; ELeave 1 false] with
  | Some s => step no_z no_d (KT OneShot false) EAccept s = None
              /\ match step no_z no_d (KT OneShot false) (EWork 1) s with
                 | Some s' => closed s' = true /\ accepted s' = [1] /\ hooks (conns s' 1) = 1 /\ shut (conns s' 2) = true
                 | None => False
                 end
  | None => False
  end.
Proof. vm_compute. repeat split. Qed.
