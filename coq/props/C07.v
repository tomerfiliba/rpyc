(* C07 — A hostile peer cannot step outside what the service exposes.
   Statements, the glue that instantiates proofs/HostileP.v with the generated tables, the witness sessions, Print Assumptions.

   Setting (model/Hostile.v): the peer sends ANY list of well-framed messages (any brine value each) together with ANY
   script of answers to the requests the server itself sends while handling them; between messages anybody else may
   change the service ([IEnv]).  What an operation on a service object does and returns is an arbitrary function over
   an abstract service state ([sem W], universally quantified).  The handler table / number table / ladders the
   interpreter runs are the ones regenerated from the source tree on every run (gen/Gen_handlers.v), equal to the
   hand-written ones of the model (proofs/HostileTie.v).  Every event of the connection's trace is checked against a
   ghost replay of everything that happened before it ([ev_ok], proofs/HostileP.v). *)
(* SCOPE.  "Every sequence of messages": the theorems below hold for every list of inputs, but they DESCRIBE a connection only up to
   the first message whose outcome is OUnm (the model does not describe it; absorbing, c07_unmodelled_is_absorbing): a by-name access
   of a policy-allowed name on a plain value, a call with non-empty keyword pairs, a frozenset payload whose order matters, nesting
   deeper than 64, a float release count, a tuple callee with a non-iterable star argument.  One message is one atomic step: requests
   the peer sends while the server waits for the answer to its own nested request are outside every theorem (harness oracle only).
   Operations whose target is a peer proxy are one scripted exchange (flag approx). *)
From V Require Import lib.Base lib.Sx model.Brine model.Attr model.Hostile proofs.AttrP proofs.HostileP proofs.HostileTie
  gen.Gen_handlers gen.Gen_attrpolicy.
From V Require model.Vinegar.
From Coq Require Import String.

(* the connection as the pinned tree + default configuration define it *)
Notation GEN_RUN S w l := (run S tree_config Gen_handlers.handlers Gen_handlers.dispatch Gen_handlers.msg_ladder
                               Gen_handlers.unbox_ladder Gen_handlers.box_ladder (init w) l).

(* 0. The master invariant, for every service, every configuration and every handler table of the handler language that
      pickles only under the allow_pickle guard: the whole trace is well-formed. *)
Theorem c07_trace_wellformed : forall W (S : sem W) C HT DT ML UL BL, val_closed S -> table_pk C HT ->
  forall w l, wf S C (tr (run S C HT DT ML UL BL (init w) l)).
Proof. intros. now apply wf_run. Qed.
Print Assumptions c07_trace_wellformed.

Theorem c07_trace_wellformed_pinned_tree : forall W (S : sem W), val_closed S -> forall w l, wf S tree_config (tr (GEN_RUN S w l)).
Proof. intros. apply wf_run; [assumption|exact handlers_table_pk]. Qed.
Print Assumptions c07_trace_wellformed_pinned_tree.

(* 1. Every object reference a message carries is resolved through the table of THIS connection at that moment; the table
      holds only objects the server itself lent to this peer earlier on this connection (an EBox event), and at every
      moment it is exactly the replay of the lend / release / clear events.  A key that is not there (forged, already
      released, harvested on another connection) gives KeyError (EMiss). *)
Theorem c07_only_table_objects : forall W (S : sem W), val_closed S -> forall w l t1 k o t2,
  tr (GEN_RUN S w l) = t1 ++ EResolve k o :: t2 ->
  (exists c, tbl_find k (g_tbl (ghost_of t2)) = Some (o, c)) /\ exists k', In (EBox k' o) t2.
Proof. intros W S Sv w l. exact (resolve_only_lent S tree_config _ _ _ _ _ Sv handlers_table_pk w l). Qed.
Print Assumptions c07_only_table_objects.

Theorem c07_unknown_reference_is_keyerror : forall W (S : sem W), val_closed S -> forall w l t1 k t2,
  tr (GEN_RUN S w l) = t1 ++ EMiss k :: t2 -> tbl_find k (g_tbl (ghost_of t2)) = None.
Proof. intros W S Sv w l. exact (miss_not_lent S tree_config _ _ _ _ _ Sv handlers_table_pk w l). Qed.
Print Assumptions c07_unknown_reference_is_keyerror.

Theorem c07_table_is_replay_of_lend_events : forall W (S : sem W), val_closed S -> forall w l,
  tbl (GEN_RUN S w l) = g_tbl (ghost_of (tr (GEN_RUN S w l))).
Proof. intros W S Sv w l. exact (table_is_replay S tree_config _ _ _ _ _ Sv handlers_table_pk w l). Qed.
Print Assumptions c07_table_is_replay_of_lend_events.

(* 1'. Concretely: a request whose first argument refers to a key that is not in the table is answered with KeyError under
       its own sequence number, for EVERY handler number, whatever follows; nothing is touched, table and service unchanged. *)
Theorem c07_forged_reference_refused : forall W (S : sem W) (s : hst W) seq h key rest answers,
  lost s = false -> closed s = false -> tbl_find key (tbl s) = None ->
  let msg := PTuple [PInt 1; seq; PTuple [h; PTuple [PInt 2; PTuple (PTuple [PInt 3; key] :: rest)]]] in
  exists s', handle_msg S tree_config Gen_handlers.handlers Gen_handlers.dispatch Gen_handlers.msg_ladder
               Gen_handlers.unbox_ladder Gen_handlers.box_ladder msg answers s = (s', OExc seq (XStd KeyError))
    /\ wst s' = wst s /\ tbl s' = tbl s /\ tr s' = EMiss key :: EMsg :: tr s /\ closed s' = false.
Proof. intros W S. exact (forged_reference_refused S tree_config _ _). Qed.
Print Assumptions c07_forged_reference_refused.

(* 2. Whatever the implementation touches, probes, accesses by name, lends or pickles is an object the current request holds
      (first conjunct: what a request holds is emptied when the next message is taken), and an earlier event of the trace handed
      it out (second conjunct): the root (GETROOT), the table, type() of an object, or the result of a permitted operation —
      for every handler number and every argument shape. *)
Theorem c07_touched_only_held : forall W (S : sem W), val_closed S -> forall w l t1 e t2 o,
  tr (GEN_RUN S w l) = t1 ++ e :: t2 -> target e = Some o ->
  In o (g_auth (ghost_of t2)) /\ exists e', In e' t2 /\ gives e' o.
Proof. intros W S Sv w l. exact (touched_only_held S tree_config _ _ _ _ _ Sv handlers_table_pk w l). Qed.
Print Assumptions c07_touched_only_held.

(* 3. Every access by a peer-chosen name passed the C06 decision; under the default configuration that means: a read
      (never set / delete), of a name that starts with exposed_ or is in safe_attrs.  This holds for every handler: the
      handler language has no other way to reach an attribute by name (the CVE-2019-16328 shape has no translation). *)
Theorem c07_attr_effects_checked : forall W (S : sem W), val_closed S -> forall w l t1 o p final ys t2,
  tr (GEN_RUN S w l) = t1 ++ EAttr o p final ys :: t2 -> p = PGet /\ allowed_default final.
Proof.
  intros W S Sv w l t1 o p final ys t2 E.
  destruct (trace_event_ok S tree_config _ _ _ _ _ Sv handlers_table_pk w l _ _ _ E) as (_ & pn & vw & D).
  exact (default_decision p pn vw final D).
Qed.
Print Assumptions c07_attr_effects_checked.

(* the hasattr probes _check_attr makes before deciding are on allowed names only *)
Theorem c07_probes_only_allowed_names : forall W (S : sem W), val_closed S -> forall w l t1 o n t2,
  tr (GEN_RUN S w l) = t1 ++ EProbe o n :: t2 -> allowed_default n.
Proof.
  intros W S Sv w l t1 o n t2 E.
  destruct (trace_event_ok S tree_config _ _ _ _ _ Sv handlers_table_pk w l _ _ _ E) as (_ & p & pn & vw & H).
  exact (probe_names (c_attr default_config) p pn vw n eq_refl eq_refl H).
Qed.
Print Assumptions c07_probes_only_allowed_names.

(* an object's own _rpyc_*attr hook is used only when its type defines one (then the object decides: C06) *)
Theorem c07_hook_only_when_defined : forall W (S : sem W), val_closed S -> forall w l t1 o p n ys t2,
  tr (GEN_RUN S w l) = t1 ++ EHook o p n ys :: t2 ->
  exists pn vw, decide true (c_attr default_config) p pn vw = Ok (ViaHook n) /\ hook_for vw p = true.
Proof.
  intros W S Sv w l t1 o p n ys t2 E.
  destruct (trace_event_ok S tree_config _ _ _ _ _ Sv handlers_table_pk w l _ _ _ E) as (_ & pn & vw & D).
  exists pn, vw. split; [exact D|exact (decide_hook_defined _ _ _ _ _ _ D)].
Qed.
Print Assumptions c07_hook_only_when_defined.

(* 4. Nothing is pickled while allow_pickle is off (any configuration with the switch off; the default has it off). *)
Theorem c07_no_pickle : forall W (S : sem W) C HT DT ML UL BL, val_closed S -> table_pk C HT -> c_pickle C = false ->
  forall w l o ys, ~ In (ETouch o OpPickle ys) (tr (run S C HT DT ML UL BL (init w) l)).
Proof.
  intros W S C HT DT ML UL BL Sv Hpk Hc w l o ys Hin. apply in_split in Hin as (t1 & t2 & E).
  rewrite (pickle_needs_switch S C _ _ _ _ _ Sv Hpk w l _ _ _ _ E) in Hc. discriminate.
Qed.
Print Assumptions c07_no_pickle.
Theorem c07_no_pickle_pinned_tree : forall W (S : sem W), val_closed S -> forall w l o ys, ~ In (ETouch o OpPickle ys) (tr (GEN_RUN S w l)).
Proof. intros W S Sv. exact (c07_no_pickle W S tree_config _ _ _ _ _ Sv handlers_table_pk eq_refl). Qed.
Print Assumptions c07_no_pickle_pinned_tree.

(* 5. No exception record — solicited or not, however crafted — makes the process import a module or call a constructor;
      the only classes instantiated (with __new__) are builtin exception classes or generic stand-ins. *)
Theorem c07_no_import_no_ctor : forall W (S : sem W), val_closed S -> forall w l v,
  In (EVin v) (tr (GEN_RUN S w l)) ->
  (forall m, v <> Vinegar.EImport m) /\ (forall c, v <> Vinegar.EInit c) /\
  (forall c, v = Vinegar.ENew (Vinegar.Real c) ->
             exists n ok, Vinegar.assoc n (Vinegar.builtins_ns (s_env S)) = Some (Vinegar.AExc c ok)).
Proof.
  intros W S Sv w l v Hin. apply in_split in Hin as (t1 & t2 & E).
  destruct (vinegar_effects S tree_config _ _ _ _ _ Sv handlers_table_pk w l _ _ _ E) as (A & B & D). repeat split.
  - intros m ->. destruct (A m eq_refl) as [X|X]; discriminate X.
  - exact B.
  - intros c Hc. exact (D c Hc eq_refl).
Qed.
Print Assumptions c07_no_import_no_ctor.

(* 6. Each message has exactly one outcome.  A request is answered under ITS OWN sequence number with a value or an exception,
      or this connection ends (a local KeyboardInterrupt/SystemExit the configuration propagates, or the peer's own close);
      anything that is not a request is never answered: dropped, or this connection ends; a dead connection reads nothing.
      [closed s' = true] after OEnd is what Connection.serve_all does with an exception that leaves serve() (typed fact
      serve_all_closes: the loop sits in try/finally close()); a caller that drives serve() itself must close on its own.
      [OUnm]: the model does not describe this message (an operation on a plain value's own attribute, keyword arguments,
      a frozenset payload whose iteration order matters, nesting deeper than 64, ...); it then says nothing about the rest
      of the connection (c07_unmodelled_is_absorbing): all statements here are about the modelled prefix ([lost s = false]). *)
Theorem c07_always_answered_or_dropped : forall W (S : sem W) msg answers (s s' : hst W) o,
  lost s = false ->
  handle_msg S tree_config Gen_handlers.handlers Gen_handlers.dispatch Gen_handlers.msg_ladder Gen_handlers.unbox_ladder
             Gen_handlers.box_ladder msg answers s = (s', o) ->
  (closed s = true -> o = ODead /\ s' = s) /\
  (closed s = false -> forall seq args, kind_of Gen_handlers.msg_ladder msg = Some (DRequest, seq, args) ->
     (exists p, o = OReply seq p) \/ (exists x, o = OExc seq x /\ propagates tree_config x = false) \/
     (exists x, o = OEnd x /\ propagates tree_config x = true /\ closed s' = true) \/ (o = OClosed /\ closed s' = true) \/ o = OUnm) /\
  (closed s = false -> (forall seq args, kind_of Gen_handlers.msg_ladder msg <> Some (DRequest, seq, args)) ->
     o = OIgnored \/ (exists x, o = OEnd x /\ closed s' = true) \/ o = OUnm).
Proof.
  intros W S msg answers s s' o Hl E. split; [|split].
  - intros Hc. exact (dead_outcome S _ _ _ _ _ _ _ _ _ _ _ Hl Hc E).
  - intros Hc seq args Hk. exact (request_outcome S _ _ _ _ _ _ _ _ _ _ _ _ _ Hl Hc Hk E).
  - intros Hc Hk. exact (other_outcome S _ _ _ _ _ _ _ _ _ _ _ Hl Hc Hk E).
Qed.
Print Assumptions c07_always_answered_or_dropped.

(* 6'. On the pinned tree responses go through _dispatch_response: an unsolicited reply / exception record that cannot be rebuilt is
       dropped like any other unsolicited response; the connection ends only for EOFError or for something that is not an Exception. *)
Theorem c07_undecodable_response : forall W (S : sem W) msg answers (s s' : hst W) o d seq args,
  lost s = false -> closed s = false -> kind_of Gen_handlers.msg_ladder msg = Some (d, seq, args) -> d = DReplyG \/ d = DExceptionG ->
  handle_msg S tree_config Gen_handlers.handlers Gen_handlers.dispatch Gen_handlers.msg_ladder Gen_handlers.unbox_ladder
             Gen_handlers.box_ladder msg answers s = (s', o) ->
  o = OIgnored \/ (exists x, o = OEnd x /\ escapes_response x = true /\ closed s' = true) \/ o = OUnm.
Proof. intros W S. exact (guarded_response_outcome S tree_config _ _ _ _ _). Qed.
Print Assumptions c07_undecodable_response.

(* 6''. Once the model met something it does not describe, it says nothing more: every later outcome is OUnm, nothing changes. *)
Theorem c07_unmodelled_is_absorbing : forall W (S : sem W) msg answers (s s' : hst W),
  (lost s = true -> handle_msg S tree_config Gen_handlers.handlers Gen_handlers.dispatch Gen_handlers.msg_ladder Gen_handlers.unbox_ladder
                               Gen_handlers.box_ladder msg answers s = (s, OUnm)) /\
  (handle_msg S tree_config Gen_handlers.handlers Gen_handlers.dispatch Gen_handlers.msg_ladder Gen_handlers.unbox_ladder
              Gen_handlers.box_ladder msg answers s = (s', OUnm) -> lost s' = true).
Proof. intros W S msg answers s s'. split; [apply lost_is_absorbing|apply unmodelled_sets_lost]. Qed.
Print Assumptions c07_unmodelled_is_absorbing.

(* 7. [partial: true of the model by construction, see the assumption "hasattr probes ... are reads" in the harness META]
      The service's state changes only together with an event that runs service code: an operation on / a checked access to /
      a hook of a held object, a hasattr probe of _check_attr, repr()/dir() of an exception payload, on_disconnect.  A message
      refused BEFORE any of these -- unknown reference, unknown handler number, wrong arity, malformed shape, a name that is
      not text, unsolicited reply, crafted exception record -- leaves it exactly as it was.  (A denied name on an object is
      refused after the probe hasattr(obj, "exposed_" + name): that probe is service code when the object defines __getattr__.) *)
Theorem c07_refusals_leave_state_untouched_partial : forall W (S : sem W) msg answers (s s' : hst W) o,
  handle_msg S tree_config Gen_handlers.handlers Gen_handlers.dispatch Gen_handlers.msg_ladder Gen_handlers.unbox_ladder
             Gen_handlers.box_ladder msg answers s = (s', o) ->
  (nt (tr s) <= nt (tr s'))%nat /\ (nt (tr s') = nt (tr s) -> wst s' = wst s).
Proof. intros W S msg answers s s' o. apply q_handle_msg. Qed.
Print Assumptions c07_refusals_leave_state_untouched_partial.

(* 7'. netref.class_factory (a proxy for a peer-declared type name) never makes the process import a module: on the pinned tree it
       reads the peer-named class out of the module's own __dict__ (generated fact class_lookup_mode = LkDict), so a module-level
       __getattr__ hook (PEP 562: concurrent.futures, ...) is never run for a peer-chosen name. *)
Theorem c07_class_lookup_never_imports : forall W (S : sem W), val_closed S -> forall w l m, ~ In (ECls m) (tr (GEN_RUN S w l)).
Proof.
  intros W S Sv w l m Hin. apply in_split in Hin as (t1 & t2 & E).
  pose proof (class_hook_needs_getattr S tree_config _ _ _ _ _ Sv handlers_table_pk w l _ _ _ E) as H. discriminate H.
Qed.
Print Assumptions c07_class_lookup_never_imports.

(* 7''. netref.class_factory reads no attribute of the object a peer-declared dotted name is bound to in an imported module (an object
        that was never lent) -- provided it accepts that object by a test on type(found) alone (generated fact class_reads_object = false,
        the repaired form).  On a tree where it asks the object itself (hasattr(found, '__class__'), found.__class__) the hypothesis
        fails: c07_class_lookup_reads_unlent_global_refuted shows a never-lent object being read by one PING. *)
Theorem c07_class_lookup_reads_no_object : Gen_handlers.class_reads_object = false ->
  forall W (S : sem W), val_closed S -> forall w l o, ~ In (EGlobalRead o) (tr (GEN_RUN S w l)).
Proof.
  intros Hf W S Sv w l o Hin. apply in_split in Hin as (t1 & t2 & E).
  pose proof (class_global_read_needs_form S tree_config _ _ _ _ _ Sv handlers_table_pk w l _ _ _ E) as H.
  unfold tree_config in H. cbn in H. rewrite Hf in H. discriminate H.
Qed.
Print Assumptions c07_class_lookup_reads_no_object.

(* 8. Tie to the generated facts of the current source tree. *)
Theorem c07_tie :
  Gen_handlers.handlers = Hostile.handlers_of Gen_handlers.cmp_guard Gen_handlers.ctx_catches_all /\ Gen_handlers.dispatch = Hostile.dispatch /\
  Gen_handlers.msg_ladder = Hostile.msg_ladder /\ Gen_handlers.unbox_ladder = Hostile.unbox_ladder /\
  Gen_handlers.box_ladder = Hostile.box_ladder /\ Gen_handlers.getitem_plain = true /\ Gen_handlers.serve_all_closes = true /\
  Gen_attrpolicy.decode_guarded = c_guard default_config /\ Gen_handlers.class_lookup_mode = c_cls_mode default_config /\
  table_pk default_config Gen_handlers.handlers.
Proof.
  destruct ladders_tie as (A & B & D). destruct table_lookup_tie as [G H]. destruct default_config_tie as (_ & _ & _ & K & _).
  split; [reflexivity|]. split; [reflexivity|]. split; [exact A|]. split; [exact B|]. split; [exact D|]. split; [exact G|].
  split; [exact H|]. split; [exact K|]. split; [exact class_lookup_tie|]. exact handlers_table_pk.
Qed.
Print Assumptions c07_tie.

(* ------------------------------------------------------------------ non-vacuity: a concrete service and a hostile session *)
Definition ex_key (i : Z) : pyval := PTuple [PStr (txt "K"); PInt 1; PInt i].
Definition ex_obj (key : pyval) (ty : oid) (attrs : list (text * aval)) (call : aval) : odesc :=
  {| od_key := key; od_type := ty; od_class := false; od_attrs := attrs; od_hooks := (false, false, false); od_hookres := ANone;
     od_call := call; od_iter := None; od_repr := txt "<obj>"; od_str := txt "obj"; od_hash := AV (PInt 7); od_dir := [];
     od_bool := true; od_methods := PTuple []; od_callable := true |}.
Definition ex_world : world :=
  {| w_objs := [ex_obj (ex_key 0) 2%N [(txt "exposed_get", AO 1%N); (txt "secret", AO 1%N); (txt "_priv", AV (PInt 5))] ANone;
                ex_obj (ex_key 1) 2%N [] (AV (PInt 42));
                ex_obj (ex_key 2) 3%N [(txt "__eq__", AO 1%N)] ANone;
                ex_obj (ex_key 3) 3%N [] ANone];
     w_builtin := [txt "builtins.list"] |}.
Definition ex_mods : list (Vinegar.text * Vinegar.ns) :=
  [(txt "lazymod", [(txt "Lazy", Vinegar.ALazy [txt "lazymod.impl"] None); (txt "Plain", Vinegar.AOther)])].
Definition ex_sem : sem unit := world_sem ex_world [txt "ValueError"; txt "KeyboardInterrupt"] ex_mods [(txt "settings.vault", 2%N)].
Definition V (v : pyval) := PTuple [PInt 1; v].
Definition Lr (k : pyval) := PTuple [PInt 3; k].
Definition Tt (l : list pyval) := PTuple [PInt 2; PTuple l].
Definition req (seq h : Z) (items : list pyval) : @input unit := IMsg (PTuple [PInt 1; PInt seq; PTuple [PInt h; Tt items]]) [].
Definition S' (s : string) := PStr (txt s).
Definition ex_session : list (@input unit) :=
  [req 1 3 [];                                                        (* GETROOT *)
   req 2 4 [Lr (ex_key 0); V (S' "secret")];                          (* GETATTR root.secret: denied *)
   req 3 11 [Lr (ex_key 0); Lr (ex_key 0); V (S' "__class__")];       (* CMP with a denied operator name *)
   req 4 4 [Lr (ex_key 0); V (S' "get")];                             (* GETATTR root.get -> exposed_get: object 1 is lent *)
   req 5 7 [Lr (ex_key 1); V (PTuple []); V (PTuple [])];             (* CALL the lent object *)
   req 6 9 [Lr (ex_key 2)];                                           (* REPR of an object that was never lent *)
   req 7 14 [Lr (ex_key 0); V (PInt 2)];                              (* PICKLE *)
   req 8 6 [Lr (ex_key 0); V (S' "exposed_get"); V (PInt 1)];         (* SETATTR *)
   IMsg (PTuple [PInt 3; PInt 9; PTuple [PTuple [S' "os"; S' "system"]; PTuple []; PTuple []; S' ""]]) [];   (* crafted exception record *)
   req 10 21 []].                                                     (* no such handler *)
Definition ex_outs : list out :=
  (fix go (s : hst unit) (l : list (@input unit)) : list out :=
     match l with [] => [] | i :: r => let '(s', o) := step ex_sem default_config Hostile.handlers Hostile.dispatch Hostile.msg_ladder Hostile.unbox_ladder Hostile.box_ladder s i in o :: go s' r end)
    (init tt) ex_session.

Example c07_session_outcomes :
  ex_outs = [OReply (PInt 1) (PTuple [PInt 4; ex_key 0]);
             OExc (PInt 2) (XStd AttributeError);
             OExc (PInt 3) (XStd AttributeError);
             OReply (PInt 4) (PTuple [PInt 4; ex_key 1]);
             OReply (PInt 5) (PTuple [PInt 1; PInt 42]);
             OExc (PInt 6) (XStd KeyError);
             OExc (PInt 7) (XStd ValueError);
             OExc (PInt 8) (XStd AttributeError);
             OIgnored;
             OExc (PInt 10) (XStd KeyError)].
Proof. vm_compute. reflexivity. Qed.

Definition ex_final : hst unit := run ex_sem default_config Hostile.handlers Hostile.dispatch Hostile.msg_ladder Hostile.unbox_ladder Hostile.box_ladder (init tt) ex_session.
(* the hypotheses of the trace theorems are met by a trace that resolves, probes, accesses, touches and lends *)
Example c07_trace_is_not_trivial :
  In (EResolve (ex_key 0) 0%N) (tr ex_final) /\ In (EAttr 0%N PGet (txt "exposed_get") [1%N]) (tr ex_final) /\
  In (EProbe 0%N (txt "exposed_secret")) (tr ex_final) /\ In (EBox (ex_key 1) 1%N) (tr ex_final) /\
  In (ETouch 1%N OpCall []) (tr ex_final) /\ In (EMiss (ex_key 2)) (tr ex_final) /\
  In (EVin (Vinegar.ENew (Vinegar.Generic (S' "os") (S' "system")))) (tr ex_final) /\
  tbl ex_final = [(ex_key 0, 0%N, 0%Z); (ex_key 1, 1%N, 0%Z)] /\ List.length (tr ex_final) = 28%nat.
Proof.
  split; [apply (nth_error_In _ 23)|split; [apply (nth_error_In _ 13)|split; [apply (nth_error_In _ 22)|split; [apply (nth_error_In _ 12)|
  split; [apply (nth_error_In _ 9)|split; [apply (nth_error_In _ 7)|split; [apply (nth_error_In _ 1)|split]]]]]]]; vm_compute; reflexivity.
Qed.
(* the guard hypothesis holds for the model's own table, and fails for a table that pickles unguarded *)
Example c07_guard_hypothesis_is_decidable_and_sharp :
  table_pkb false Hostile.handlers = true /\
  table_pkb false [("pickle"%string, {| h_min := 2; h_defaults := []; h_body := XOp OpPickle P0 P1 |})] = false.
Proof. split; vm_compute; reflexivity. Qed.
(* refusals before any probe run no service code: the forged reference of the session adds no touching event *)
Example c07_refused_request_is_quiet :
  let s1 := fst (step ex_sem default_config Hostile.handlers Hostile.dispatch Hostile.msg_ladder Hostile.unbox_ladder Hostile.box_ladder (init tt) (req 1 3 [])) in
  let s2 := fst (step ex_sem default_config Hostile.handlers Hostile.dispatch Hostile.msg_ladder Hostile.unbox_ladder Hostile.box_ladder s1 (req 6 9 [Lr (ex_key 2)])) in
  nt (tr s2) = nt (tr s1) /\ tbl s2 = tbl s1.
Proof. vm_compute. split; reflexivity. Qed.
(* the canary world meets the hypothesis on plain-value operations *)
Example c07_val_closed_is_satisfiable : val_closed ex_sem.
Proof. apply world_sem_val_closed. Qed.

(* 7'-refuted: with the form class_factory had before the repair -- getattr(module, name, None) -- one PING carrying a proxy whose
   declared type name resolves through a module-level __getattr__ makes the process import (finding: C07 class_factory import) *)
Definition getattr_config : config := config_with Vinegar.LkGetattr.
Definition lazy_ping : @input unit :=
  IMsg (PTuple [PInt 1; PInt 1; PTuple [PInt 1; Tt [PTuple [PInt 4; PTuple [S' "lazymod.Lazy"; PInt 1; PInt 2]]]]]) [PReply (V (PTuple []))].
Example c07_class_lookup_refuted_when_getattr :
  In (ECls (txt "lazymod.impl")) (tr (fst (step ex_sem getattr_config Hostile.handlers Hostile.dispatch Hostile.msg_ladder Hostile.unbox_ladder Hostile.box_ladder (init tt) lazy_ping)))
  /\ ~ In (ECls (txt "lazymod.impl")) (tr (fst (step ex_sem default_config Hostile.handlers Hostile.dispatch Hostile.msg_ladder Hostile.unbox_ladder Hostile.box_ladder (init tt) lazy_ping))).
Proof. split; vm_compute; [tauto|intuition discriminate]. Qed.

(* 7''-refuted: in the form that asks the found object itself, one PING carrying a proxy label whose declared type name is the dotted name
   of a module global makes class_factory read attributes of that object: object 2 was never lent, resolved or returned *)
Definition global_ping : @input unit :=
  IMsg (PTuple [PInt 1; PInt 1; PTuple [PInt 1; Tt [PTuple [PInt 4; PTuple [S' "settings.vault"; PInt 1; PInt 2]]]]]) [PReply (V (PTuple []))].
Definition run_global (reads : bool) : hst unit :=
  fst (step ex_sem (with_cls_reads default_config reads) Hostile.handlers Hostile.dispatch Hostile.msg_ladder Hostile.unbox_ladder Hostile.box_ladder (init tt) global_ping).
Example c07_class_lookup_reads_unlent_global_refuted :
  In (EGlobalRead 2%N) (tr (run_global true)) /\ (forall k, ~ In (EBox k 2%N) (tr (run_global true))) /\ tbl (run_global true) = []
  /\ ~ In (EGlobalRead 2%N) (tr (run_global false)).
Proof. vm_compute. repeat split; try tauto; intros; intuition discriminate. Qed.

(* 2-witness (known finding "exception payload repr"): reporting an exception applies repr() to the objects the exception carries.
   c07_touched_only_held covers it (the object was handed out by service code, in the exception it raised), but that object
   need not ever have been lent or returned: here object 3 is carried by the exception the call of object 1 raises. *)
Definition ex_world2 : world :=
  {| w_objs := [ex_obj (ex_key 0) 2%N [(txt "exposed_get", AO 1%N)] ANone; ex_obj (ex_key 1) 2%N [] (AX (XCarry [3%N]));
                ex_obj (ex_key 2) 3%N [] ANone; ex_obj (ex_key 3) 3%N [] ANone];
     w_builtin := [] |}.
Definition ex_final2 : hst unit :=
  run (world_sem ex_world2 [] [] []) default_config Hostile.handlers Hostile.dispatch Hostile.msg_ladder Hostile.unbox_ladder Hostile.box_ladder (init tt)
      [req 1 3 []; req 2 8 [Lr (ex_key 0); V (S' "get"); V (PTuple []); V (PTuple [])]].
Example c07_exception_payload_repr_witness :
  In (EPayload 3%N OpRepr) (tr ex_final2) /\ (forall k, ~ In (EBox k 3%N) (tr ex_final2)) /\ tbl ex_final2 = [(ex_key 0, 0%N, 0%Z)].
Proof. vm_compute. repeat split; try reflexivity; [tauto|]. intros k H. intuition discriminate. Qed.

(* 9. The comparison route after its repair (generated fact cmp_guard = Some names): a CMP request -- handler number 11 as any
      numeric value, ANY arguments -- performs by-name accesses of the comparison names only; no other attribute of type(obj)
      can be reached on this route however the policy classifies it.  On a tree without the guard (cmp_guard = None) the
      hypothesis fails and c07_cmp_route_refuted_when_unguarded shows the route reaching __bool__. *)
Theorem c07_cmp_route_serves_only_comparisons : Gen_handlers.cmp_guard = Some Hostile.CMP_NAMES ->
  forall W (S : sem W) seq h pkg (s s' : hst W) o, num_of h = Some 11%Z ->
  dispatch_request S default_config Gen_handlers.handlers Gen_handlers.dispatch Gen_handlers.unbox_ladder Gen_handlers.box_ladder
                   seq (PTuple [h; pkg]) s = (s', o) ->
  arel Hostile.CMP_NAMES s s'.
Proof.
  intros Hg W S seq h pkg s s' o Hn E. eapply guarded_request_listed; [|exact E].
  intros h' pkg' d U Hf. cbn in U. injection U as <- <-. unfold find_handler in Hf. rewrite Hn in Hf.
  rewrite dispatch_tie in Hf. cbn [assoc_z Hostile.dispatch Z.eqb Pos.eqb] in Hf. rewrite handlers_tie, Hg in Hf.
  destruct Gen_handlers.ctx_catches_all; cbn in Hf; injection Hf as <-;
    (split; [split; [split; [exact (guard_ok_listed CMP_NAMES)|]|]|constructor]; cbn; auto).
Qed.
Print Assumptions c07_cmp_route_serves_only_comparisons.

Definition ex_world3 : world :=
  {| w_objs := [ex_obj (ex_key 0) 1%N [] ANone; ex_obj (ex_key 1) 2%N [(txt "__bool__", AO 0%N); (txt "__eq__", AO 0%N)] ANone; ex_obj (ex_key 2) 2%N [] ANone];
     w_builtin := [] |}.
Definition cmp_session (name : string) : list (@input unit) := [req 1 3 []; req 2 11 [Lr (ex_key 0); Lr (ex_key 0); V (S' name)]].
Definition run3 (H : list (string * hdef)) (name : string) : hst unit :=
  run (world_sem ex_world3 [] [] []) default_config H Hostile.dispatch Hostile.msg_ladder Hostile.unbox_ladder Hostile.box_ladder (init tt) (cmp_session name).
Example c07_cmp_route_refuted_when_unguarded :
  In (EAttr 1%N PGet (txt "__bool__") [0%N]) (tr (run3 (handlers_of None false) "__bool__")) /\
  (forall ys, ~ In (EAttr 1%N PGet (txt "__bool__") ys) (tr (run3 (handlers_of (Some CMP_NAMES) false) "__bool__"))) /\
  In (EAttr 1%N PGet (txt "__eq__") [0%N]) (tr (run3 (handlers_of (Some CMP_NAMES) false) "__eq__")).
Proof. vm_compute. split; [tauto|split; [intros ys H; intuition discriminate|tauto]]. Qed.
