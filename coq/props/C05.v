(* C05 — Packets arrive whole, in order and unaltered however the transport fragments. *)
From V Require Import lib.Base model.Channel model.ChannelS proofs.ChannelP proofs.ChannelW proofs.ChannelSP proofs.ChannelTie gen.Gen_channel gen.Gen_stream.
Open Scope N_scope.

Section C05.
(* zlib is outside the model: any pair of functions with decompress (compress x) = x *)
Variable compress : list byte -> list byte.
Variable decompress : list byte -> result (list byte).
Hypothesis zlib_roundtrip : forall x, decompress (compress x) = Ok x.
(* any parameters satisfying the side conditions (checked below for the generated ones) *)
Variable P : cparams.
Hypothesis Hhdr : hdr_size P = 5.
Hypothesis Hchunk : hdr_size P + nlen (flusher P) <= chunk P.

(* writer: however the transport splits the writes, exactly the frame reaches the wire *)
Theorem c05_write_complete : forall cmp data evs f, benign_w evs -> frame compress P cmp data = Ok f ->
  exists evs', channel_send compress P cmp evs data = Ok (true, f, evs').
Proof using Hhdr Hchunk.
  intros cmp data evs f Hb Hf. destruct (send_complete compress P cmp data evs f Hb Hf) as (evs' & E & _). eauto.
Qed.

(* reader: any packets, either compression setting at the sender (the receiver obeys the flag byte),
   any fragmentation of reads, any interleaved timeouts / would-blocks (tolerated on sockets) *)
Theorem c05_delivery : forall tol cmp pkts fs evs fuel, frames compress P cmp pkts = Ok fs -> benign_r tol evs ->
  (length pkts < fuel)%nat -> recv_all decompress P fuel tol evs (concat fs) [] = (pkts, false).
Proof. intros. now apply (recv_all_delivery compress decompress zlib_roundtrip P Hhdr Hchunk tol cmp pkts fs evs []). Qed.

(* any transport failure, end of stream or cut at any byte offset: an exact prefix of whole packets, never a
   shortened, padded or merged one, and no decompression error *)
Theorem c05_fault_prefix : forall tol cmp pkts fs k evs fuel, frames compress P cmp pkts = Ok fs ->
  exists n, recv_all decompress P fuel tol evs (nfirst k (concat fs)) [] = (firstn n pkts, false).
Proof.
  intros tol cmp pkts fs k evs fuel Hfs.
  destruct (recv_all_cut compress decompress zlib_roundtrip P Hhdr Hchunk tol cmp pkts fs k evs [] fuel Hfs) as (n & E & _). now exists n.
Qed.

(* a cut with an otherwise benign transport delivers exactly the packets wholly before the cut *)
Theorem c05_cut_exact : forall tol cmp pkts fs k evs fuel, frames compress P cmp pkts = Ok fs -> benign_r tol evs ->
  (length pkts < fuel)%nat ->
  recv_all decompress P fuel tol evs (nfirst k (concat fs)) [] = (firstn (whole_before k fs) pkts, false).
Proof.
  intros tol cmp pkts fs k evs fuel Hfs Hb Hfuel.
  destruct (recv_all_cut compress decompress zlib_roundtrip P Hhdr Hchunk tol cmp pkts fs k evs [] fuel Hfs) as (n & E & Hn).
  now rewrite <- (Hn Hb Hfuel).
Qed.

(* the two halves composed: every packet sequence sent through a transport that splits the writes arbitrarily and read through one
   that splits, coalesces and interrupts the reads arbitrarily arrives as exactly the same sequence *)
Theorem c05_end_to_end : forall tol cmp pkts fs wevs revs fuel, frames compress P cmp pkts = Ok fs -> benign_w wevs -> benign_r tol revs ->
  (length pkts < fuel)%nat ->
  exists wire, send_all compress P cmp wevs pkts [] = Ok (true, wire) /\ recv_all decompress P fuel tol revs wire [] = (pkts, false).
Proof. exact (end_to_end compress decompress zlib_roundtrip P Hhdr Hchunk). Qed.

(* writer under ANY transport behaviour (partial sends, failure after any number of bytes): what reached the wire is a prefix of the
   packet's frame, and the whole frame exactly when send returned normally (otherwise: stream closed, EOFError) *)
Theorem c05_writer_any_transport : forall cmp data evs f ok w evs',
  frame compress P cmp data = Ok f -> channel_send compress P cmp evs data = Ok (ok, w, evs') ->
  is_prefix w f /\ (ok = true -> w = f).
Proof. exact (send_any_transport compress P). Qed.

(* and whoever reads that wire - earlier packets sent whole, then the packet whose send went wrong anywhere - through any read
   behaviour gets whole leading packets only: never a shortened, padded or merged one *)
Theorem c05_writer_fault_seen_by_reader : forall tol cmp pkts fs d f wevs ok w wevs' revs fuel,
  frames compress P cmp pkts = Ok fs -> frame compress P cmp d = Ok f ->
  channel_send compress P cmp wevs d = Ok (ok, w, wevs') ->
  exists n, recv_all decompress P fuel tol revs (concat fs ++ w) [] = (firstn n (pkts ++ [d]), false).
Proof. exact (writer_fault_seen_by_reader compress decompress zlib_roundtrip P Hhdr Hchunk). Qed.
End C05.
Print Assumptions c05_writer_any_transport.
Print Assumptions c05_writer_fault_seen_by_reader.
Print Assumptions c05_end_to_end.
Print Assumptions c05_write_complete.
Print Assumptions c05_delivery.
Print Assumptions c05_fault_prefix.
Print Assumptions c05_cut_exact.

(* the closed state ("... yields EOFError at the reader or writer and a closed stream"): a session is any sequence of sends and
   receives on one channel (model/ChannelS.v: one stream, both directions, any zlib, any parameters, either tolerance and
   compression setting, any transport behaviour). An operation on an open stream reports EOFError exactly when it leaves the stream
   closed; once any operation has reported EOFError every later one does, and the transport is exactly as the earlier operations
   left it (nothing further read, written or consumed); a session that never reported EOFError is still open; a packet the header
   cannot describe is refused without touching anything. *)
Theorem c05_eof_iff_closed : forall compress decompress P tol cmp s o s' r,
  closed s = false -> sstep compress decompress P tol cmp s o = (s', r) -> (r = OEOF <-> closed s' = true).
Proof. exact eof_iff_closed. Qed.
Theorem c05_closed_stream_is_final : forall compress decompress P tol cmp before after s s1 r1,
  srun compress decompress P tol cmp s before = (s1, r1) -> In OEOF r1 ->
  srun compress decompress P tol cmp s (before ++ after) = (s1, r1 ++ map (fun _ => OEOF) after).
Proof. exact after_eof_everything_fails. Qed.
Theorem c05_open_until_eof : forall compress decompress P tol cmp ops s s' rs,
  closed s = false -> srun compress decompress P tol cmp s ops = (s', rs) -> ~ In OEOF rs -> closed s' = false.
Proof. exact open_until_eof. Qed.
Theorem c05_rejected_packet_touches_nothing : forall compress decompress P tol cmp s d e s',
  closed s = false -> sstep compress decompress P tol cmp s (SSend d) = (s', OErr e) -> s' = s.
Proof. exact rejected_packet_touches_nothing. Qed.
Print Assumptions c05_eof_iff_closed.
Print Assumptions c05_closed_stream_is_final.
Print Assumptions c05_open_until_eof.
Print Assumptions c05_rejected_packet_touches_nothing.

(* the generated parameters of the current tree satisfy the side conditions, for both stream kinds *)
Theorem c05_generated_params_ok :
  (hdr_size Pgen_sock = 5 /\ hdr_size Pgen_sock + nlen (flusher Pgen_sock) <= chunk Pgen_sock) /\
  (hdr_size Pgen_pipe = 5 /\ hdr_size Pgen_pipe + nlen (flusher Pgen_pipe) <= chunk Pgen_pipe) /\
  ops_ok /\
  (* both stream kinds retry a read that reports would-block: the theorems' [tol = true] instances are the ones that apply *)
  Gen_stream.PipeStream_read_tolerates_wouldblock = true.
Proof. repeat split; try apply side_sock; try apply side_pipe; try apply tie_ops; apply tie_pipe_tolerant. Qed.
Print Assumptions c05_generated_params_ok.

(* non-vacuity: identity "compression", three packets around a tiny threshold/chunk, a fragmenting oracle with timeouts *)
Definition Psmall : cparams := {| threshold := 3; chunk := 8; hdr_size := 5; flusher := [x0a] |}.
Example c05_nonvacuous :
  match frames (fun x => x) Psmall true [[x61]; [x62; x63; x64; x65; x66]; []] with
  | Ok fs => recv_all (fun x => Ok x) Psmall 10 true [RData 2; RTimeout; RData 1; RWouldBlock; RData 3] (concat fs) []
             = ([[x61]; [x62; x63; x64; x65; x66]; []], false)
             /\ fst (recv_all (fun x => Ok x) Psmall 10 true [RData 5; RData 2; RErr] (nfirst 9 (concat fs)) []) = [[x61]]
  | _ => False
  end.
Proof. vm_compute. split; reflexivity. Qed.

(* non-vacuity for the writer theorems: the transport accepts 3 bytes, then 2, then fails; 5 of the 11 frame bytes are on the wire,
   send reports failure, and the reader of [earlier packet][those 5 bytes] gets the earlier packet only *)
Example c05_writer_fault_sample :
  match frame (fun x => x) Psmall true [x62; x63; x64; x65; x66], frame (fun x => x) Psmall true [x61] with
  | Ok f, Ok f0 =>
      channel_send (fun x => x) Psmall true [WSent 3; WSent 2; WErr] [x62; x63; x64; x65; x66] = Ok (false, nfirst 5 f, [])
      /\ recv_all (fun x => Ok x) Psmall 10 true [] (f0 ++ nfirst 5 f) [] = ([[x61]], false)
  | _, _ => False
  end.
Proof. vm_compute. split; reflexivity. Qed.

(* non-vacuity for the closed state: the peer's stream holds one whole frame and 3 bytes of a second; we send a packet (written in
   two pieces), receive the whole frame, meet the end inside the second, and then a send and a receive both fail at once: the wire
   still holds exactly our one frame, and the unused write behaviour [WSent 1] is still unused *)
Example c05_session_sample :
  match frame (fun x => x) Psmall true [x61], frame (fun x => x) Psmall true [x62; x63] with
  | Ok f1, Ok f2 =>
      let s0 := {| closed := false; revs := [RData 4; RTimeout]; avail := f1 ++ nfirst 3 f2; wevs := [WSent 4; WSent 100; WSent 1]; wire := [] |} in
      let '(s, outs) := srun (fun x => x) (fun x => Ok x) Psmall true true s0 [SSend [x7a]; SRecv; SRecv; SSend [x7a]; SRecv] in
      outs = [OSent; OGot [x61]; OEOF; OEOF; OEOF] /\ closed s = true /\ wire s = [x00; x00; x00; x01; x00; x7a; x0a] /\ wevs s = [WSent 1]
  | _, _ => False
  end.
Proof. vm_compute. repeat split. Qed.
