(* C09 — Remote exceptions arrive as the same class with the same data, and safely.
   Statements with short glue and the witnesses of the refuted variants; the proofs are in proofs/VinegarP.v. *)
From V Require Import lib.Base model.Brine model.Vinegar proofs.BrineP proofs.VinegarP proofs.VinegarTie gen.Gen_vinegar.
From Coq Require Import String.
Open Scope N_scope.

(* 1. Every built-in exception class that is not re-raised locally, with every argument tuple (immutable or not),
      every attribute list and every setting of the switches on both sides: the requester rebuilds the same class with
      [cls.__new__] (one effect, no import, no constructor), the arguments with non-immutable items replaced by their repr,
      the public attributes normalised the same way followed by [_remote_version], and the traceback field; traceback and
      version are the real texts iff the SENDER's two switches are on, the denied markers otherwise.
      Guard: the record path is taken (see 1b/1c for the fast path); the class exists at the receiver under the same name
      and its __new__ needs no arguments. *)
Theorem c09_builtin_fidelity : forall M P fS fR E ver tb e n,
  e_cls e = Builtin n -> args_entries (e_dir e) = 1%nat ->
  assoc n (builtins_ns E) = Some (AExc (Builtin n) true) ->
  routed fS (e_cls e) = false ->
  fast_taken P e = false ->
  exists payload, serve_exc P fS ver tb e = Sent payload /\
  vload M fR E payload =
    ([ENew (Real (Builtin n))],
     Ok (LExc (Real (Builtin n)) (PTuple (map norm (e_args e)))
              (map set_of (public_attrs (skip_callables P) (e_dir e) ++ [(REMOTE_VERSION, PStr (if incl_ver fS then ver else DENIED_VER))]))
              (Done (PStr (if incl_tb fS then tb else DENIED_TB)) (version_warn fS E ver)))).
Proof.
  intros M P fS fR E ver tb e n HC HA HB HR HF. exists (vdump P fS ver tb e). split; [now apply serve_not_routed|].
  exact (builtin_fidelity_slow M P fS fR E ver tb e n HC HA HB HF).
Qed.
Print Assumptions c09_builtin_fidelity.

(* 1b. when the fast path is guarded by "no arguments" (generated fact, true of the tree as generated now: c09_tie), class and
       arguments of EVERY built-in exception, StopIteration included, arrive intact on whichever path *)
Theorem c09_builtin_class_and_args : forall M P fS fR E ver tb e n,
  fast_noargs_only P = true ->
  e_cls e = Builtin n -> args_entries (e_dir e) = 1%nat ->
  assoc n (builtins_ns E) = Some (AExc (Builtin n) true) ->
  arrived (vload M fR E (vdump P fS ver tb e)) = Some (Builtin n, PTuple (map norm (e_args e))).
Proof. exact builtin_class_args_preserved. Qed.
Print Assumptions c09_builtin_class_and_args.

(* 1c. on a tree whose fast path is unconditional, StopIteration("x") meets every hypothesis of 1b except the generated
       guard and arrives with args == ()  (finding F9) *)
Theorem c09_builtin_fidelity_refuted : forall M P fS fR E ver tb, fast_noargs_only P = false ->
  exists e, e_cls e = Builtin STOP_ITERATION /\ args_entries (e_dir e) = 1%nat /\ routed fS (e_cls e) = false /\
    map norm (e_args e) = [PStr (txt "x")] /\
    arrived (vload M fR E (vdump P fS ver tb e)) = Some (Builtin STOP_ITERATION, PTuple []).
Proof.
  intros M P fS fR E ver tb HP. exists stop_x. split; [reflexivity|].
  exact (builtin_fidelity_refuted M P fS fR E ver tb HP).
Qed.
Print Assumptions c09_builtin_fidelity_refuted.

(* 1d. "so ordinary except-clauses work": what is set on the rebuilt object are DATA attributes.  SCOPE of theorem 1: its attribute
       list is [public_attrs (skip_callables P)], i.e. on a tree whose dump does not leave callables out (generated fact) it contains
       the repr text of every public METHOD (add_note, a custom class's methods), which setattr then puts on the instance, shadowing
       the method.  Positive statement, guarded by the generated fact: every pair that reaches the wire comes from a non-callable
       attribute of the original; refuted otherwise with a witness (finding: method-replaced-by-text). *)
Theorem c09_methods_not_shadowed : forall P fS ver tb e m n, skip_callables P = true -> fast_taken P e = false ->
  args_entries (e_dir e) = 1%nat -> cls_key (e_cls e) = (m, n) ->
  exists attrs, vdump P fS ver tb e = record m n (map norm (e_args e)) (attrs ++ [version_attr fS ver]) (tb_field fS tb) /\
    forall na, In na attrs -> exists o, In (fst na, Some o) (e_dir e) /\ o_callable o = false /\ snd na = norm o.
Proof.
  intros P fS ver tb e m n HS HF HA HK. exists (public_attrs true (e_dir e)). split.
  - rewrite (vdump_slow _ _ _ _ _ HF HA), HK, HS. reflexivity.
  - intros na. apply public_attrs_not_callable.
Qed.
Print Assumptions c09_methods_not_shadowed.
Theorem c09_methods_not_shadowed_refuted : forall P fS ver tb, skip_callables P = false ->
  exists e name o, e_cls e = Builtin (txt "ValueError") /\ args_entries (e_dir e) = 1%nat /\ fast_taken P e = false /\
    In (name, Some o) (e_dir e) /\ o_callable o = true /\
    In (name, PStr (o_repr o)) (public_attrs (skip_callables P) (e_dir e)) /\
    vdump P fS ver tb e = record BUILTINS (txt "ValueError") [] (public_attrs (skip_callables P) (e_dir e) ++ [version_attr fS ver]) (tb_field fS tb).
Proof.
  intros [f s] fS ver tb HS. cbn in HS. subst s.
  pose (o := {| o_val := POther 1; o_repr := txt "<built-in method add_note of ValueError object>"; o_callable := true |}).
  exists {| e_cls := Builtin (txt "ValueError"); e_args := []; e_dir := [(txt "add_note", Some o); (ARGS, None)] |}, (txt "add_note"), o.
  repeat split; now left.
Qed.
Print Assumptions c09_methods_not_shadowed_refuted.

(* 2. a class outside builtins: the real class is rebuilt exactly when the receiver instantiates custom exceptions AND the
      module is present (already imported, or importable AND the receiver imports custom exceptions) AND the attribute is
      a BaseException subclass -- found in the module's namespace, or handed out by the module's __getattr__ hook (PEP 562)
      when the lookup consults it ([hooks_run], a generated fact of the tree); otherwise a generic stand-in named after the
      original.  Effects: the guarded import (iff import_custom is on and the module is not loaded), then the imports of a
      consulted hook, then exactly one __new__. *)
Theorem c09_custom_gating : forall M fR E m n args l fS ver tb,
  text_eqb m BUILTINS = false -> name_ok m n -> snd (expected_class M fR E m n) = true ->
  vload M fR E (record m n args (l ++ [version_attr fS ver]) (tb_field fS tb)) =
    (import_effects M fR E m n ++ [ENew (fst (expected_class M fR E m n))],
     Ok (LExc (fst (expected_class M fR E m n)) (PTuple args) (map set_of (l ++ [version_attr fS ver]))
              (Done (tb_field fS tb) (version_warn fS E ver)))).
Proof. exact custom_gating. Qed.
Print Assumptions c09_custom_gating.

Theorem c09_custom_real_iff : forall M fR E m n c, text_eqb m BUILTINS = false ->
  fst (expected_class M fR E m n) = Real c <->
  inst_custom fR = true /\
  exists x, (assoc m (modules E) = Some x \/ (assoc m (modules E) = None /\ import_custom fR = true /\ assoc m (importable E) = Some x))
            /\ exists ok, assoc n x = Some (AExc c ok) \/
                          (hooks_run M fR = true /\ exists imps, assoc n x = Some (ALazy imps (Some (c, ok)))).
Proof. exact custom_real_iff. Qed.
Print Assumptions c09_custom_real_iff.

(* the record of a custom exception as the sender produces it is of the shape 2 quantifies over *)
Theorem c09_custom_record : forall P fS ver tb e m n, e_cls e = Custom m n -> args_entries (e_dir e) = 1%nat ->
  vdump P fS ver tb e = record m n (map norm (e_args e)) (public_attrs (skip_callables P) (e_dir e) ++ [version_attr fS ver]) (tb_field fS tb).
Proof.
  intros P fS ver tb e m n HC HA. rewrite vdump_slow; [now rewrite HC|unfold fast_taken; now rewrite HC|exact HA].
Qed.
Print Assumptions c09_custom_record.

(* 3. safety for EVERY payload (genuine record or not), every environment and every setting of the switches:
      (a) an import happens only in two ways: the guarded __import__ (import_custom on, module not loaded yet), or inside a
          module-level __getattr__ hook of an already loaded module that the sys.modules lookup consulted (instantiate_custom on
          and [hooks_run]);
      (b) no constructor ever, (c) with instantiate_custom off the only real classes instantiated are exception classes of
          the builtins namespace, (d) at most one __new__ *)
Theorem c09_safe_any_payload : forall M fR E payload,
  (forall m, In (EImport m) (fst (vload M fR E payload)) ->
     (import_custom fR = true /\ in_modules E (modules E) (PStr m) = false) \/ (hooks_run M fR = true /\ inst_custom fR = true)) /\
  (forall c, ~ In (EInit c) (fst (vload M fR E payload))) /\
  (inst_custom fR = false -> forall c, In (ENew (Real c)) (fst (vload M fR E payload)) ->
      exists n ok, assoc n (builtins_ns E) = Some (AExc c ok)) /\
  (List.length (filter (fun x => match x with ENew _ => true | _ => false end) (fst (vload M fR E payload))) <= 1)%nat.
Proof.
  intros M fR E v. split; [|split; [|split]].
  - intros m. apply import_only_two_ways.
  - apply never_init.
  - intros H c. now apply new_only_builtin.
  - apply at_most_one_new.
Qed.
Print Assumptions c09_safe_any_payload.

(* 3a. the property's clause "import only if the receiver's configuration allows importing", for every payload: it holds on a
       tree whose lookup consults module hooks only when importing is allowed (generated fact [mode_safe Mgen]) ... *)
Theorem c09_no_import_without_switch : forall M fR E payload m, mode_safe M = true ->
  In (EImport m) (fst (vload M fR E payload)) -> import_custom fR = true.
Proof. exact no_import_unless_allowed. Qed.
Print Assumptions c09_no_import_without_switch.

(* 3b. ... and fails on a tree that reads the class with getattr(module, name, None): with instantiate_custom on and
       import_custom OFF, a payload naming an attribute that a loaded module serves through __getattr__ makes the receiver
       import (finding: import-without-switch:module-getattr-hook); the same payload imports nothing under LkDictUnlessImport,
       the lookup of the tree as generated now *)
Theorem c09_no_import_without_switch_refuted : forall M, mode_safe M = false ->
  exists fR E payload m, import_custom fR = false /\ inst_custom fR = true /\
    In (EImport m) (fst (vload M fR E payload)) /\ ~ In (EImport m) (fst (vload LkDictUnlessImport fR E payload)).
Proof.
  intros M HM. destruct M; try discriminate HM.
  exists {| import_custom := false; inst_custom := true; inst_oldstyle := false |}, hook_env, hook_payload, (txt "heavy.dependency").
  split; [reflexivity|]. split; [reflexivity|]. split; vm_compute; [now left|]. intros [H|[]]. discriminate.
Qed.
Print Assumptions c09_no_import_without_switch_refuted.

(* 3'. under the switches of the current tree's DEFAULT_CONFIG (regenerated) nothing is imported, whatever the lookup form:
       the sys.modules lookup is not reached *)
Theorem c09_safe_default_config : forall M E payload,
  (forall m, ~ In (EImport m) (fst (vload M default_rflags E payload))) /\
  (forall c, ~ In (EInit c) (fst (vload M default_rflags E payload))) /\
  (forall c, In (ENew (Real c)) (fst (vload M default_rflags E payload)) -> exists n ok, assoc n (builtins_ns E) = Some (AExc c ok)).
Proof.
  intros M E v. destruct (c09_safe_any_payload M default_rflags E v) as (A & B & C & _). repeat split.
  - intros m H. apply A in H as [[H _]|[_ H]]; discriminate H.
  - exact B.
  - apply C. reflexivity.
Qed.
Print Assumptions c09_safe_default_config.

(* 4. the StopIteration fast path, both directions on both sides *)
Theorem c09_stopiteration_fastpath : forall M P fS fR E ver tb e v,
  (vdump P fS ver tb e = PInt EXC_STOP <-> fast_taken P e = true) /\
  (snd (vload M fR E v) = Ok LStop <-> py_eq_one v = true) /\
  (fast_taken P e = true -> vload M fR E (vdump P fS ver tb e) = ([], Ok LStop)) /\
  (fast_taken P e = true -> e_cls e = Builtin STOP_ITERATION /\ (fast_noargs_only P = true -> e_args e = [])).
Proof.
  intros M P fS fR E ver tb e v.
  split; [apply fastpath_dump|]. split; [apply fastpath_load|]. split; [apply fastpath_roundtrip|apply fast_taken_inv].
Qed.
Print Assumptions c09_stopiteration_fastpath.

(* 4b. every exception message reaches the request it answers.  vinegar.load fails -- before an object exists ([Raise]: ill-shaped
       payload, a class whose __new__ needs arguments, an unusable generic name) or while filling the object in ([Fail]: attribute
       list / version / traceback fields of the wrong type) -- with TypeError / ValueError / UnicodeError / AttributeError only, never
       EOFError (SCOPE: failures of CPython's own setattr on the new object are outside the model); on a tree whose _dispatch
       delivers a rebuild failure to the request (generated fact, asserted in c09_tie) nothing escapes _dispatch: the request gets
       the rebuilt exception or that failure.  On a tree that unboxes inline both kinds of failure escape, callback left registered. *)
Theorem c09_exception_reaches_request : forall M fR E payload,
  (forall e, load_failure (snd (vload M fR E payload)) = Some e -> e = TypeError \/ e = ValueError \/ e = UnicodeError \/ e = AttributeError) /\
  (forall e, dispatch_exception true (snd (vload M fR E payload)) <> Escapes e) /\
  (forall l, snd (vload M fR E payload) = Ok l -> load_failure (Ok l) = None -> forall d, dispatch_exception d (snd (vload M fR E payload)) = ToRequest l).
Proof.
  intros M fR E v. split; [|split].
  - intros e. apply vload_failure_kinds.
  - apply exception_reaches_request.
  - intros l H HN d. rewrite H. unfold dispatch_exception. now rewrite HN.
Qed.
Print Assumptions c09_exception_reaches_request.
Theorem c09_exception_reaches_request_refuted : forall M,
  (forall fR E, dispatch_exception false (snd (vload M fR E (PInt 2))) = Escapes TypeError) /\
  (exists fR E payload l, snd (vload M fR E payload) = Ok l /\ dispatch_exception false (snd (vload M fR E payload)) = Escapes AttributeError).
Proof.
  intros M. split; [reflexivity|].
  exists {| import_custom := false; inst_custom := false; inst_oldstyle := false |}, hook_env,
    (PTuple [PTuple [PStr (txt "nosuchmod"); PStr (txt "Bar")]; PTuple []; PTuple [PTuple [PStr REMOTE_VERSION; PInt 4]]; PStr (txt "tb")]).
  eexists. split; destruct M; reflexivity.
Qed.
Print Assumptions c09_exception_reaches_request_refuted.

(* 5. "when, and only when": with a sender switch off the payload does not depend on the traceback / version text at all *)
Theorem c09_disclosure : forall P fS e,
  (incl_tb fS = false -> forall ver tb1 tb2, vdump P fS ver tb1 e = vdump P fS ver tb2 e) /\
  (incl_ver fS = false -> forall ver1 ver2 tb, vdump P fS ver1 tb e = vdump P fS ver2 tb e).
Proof. intros P fS e. split; intros H *; apply vdump_fields; unfold tb_field, version_attr; now rewrite ?H. Qed.
Print Assumptions c09_disclosure.

(* 6. every record the sender produces is an immutable plain value, and crosses the wire unchanged (C04 round trip) *)
Theorem c09_wire : forall B P fS ver tb e,
  dumpable (vdump P fS ver tb e) = true /\
  (wf B (vdump P fS ver tb e) = true -> text_ok B (vdump P fS ver tb e) = true ->
   exists bs, Brine.dump B (vdump P fS ver tb e) = Ok bs /\ Brine.load B bs = Ok (vdump P fS ver tb e)).
Proof. intros. split; [apply vdump_dumpable|apply wire_roundtrip]. Qed.
Print Assumptions c09_wire.

(* 7. only SystemExit / KeyboardInterrupt are ever re-raised locally, each under its own switch *)
Theorem c09_routing : forall fS c, routed fS c = true ->
  (c = Builtin SYSTEM_EXIT /\ prop_sysexit fS = true) \/ (c = Builtin KEYBOARD_INTERRUPT /\ prop_kbdint fS = true).
Proof. exact routed_only_two. Qed.
Print Assumptions c09_routing.

(* 8. what the generated programs, constants and facts of the tree say *)
Theorem c09_tie :
  Gen_vinegar.load_import_guard = Vinegar.import_guard /\ Gen_vinegar.load_ladder = Vinegar.resolution_prog /\
  Gen_vinegar.load_class_guard = true /\ Gen_vinegar.load_instantiates_with_new_only = true /\
  txt Gen_vinegar.dump_denied_tb = DENIED_TB /\ txt Gen_vinegar.dump_denied_ver = DENIED_VER /\
  map txt Gen_vinegar.dump_ignored_attrs = IGNORED_ATTRS /\ Gen_vinegar.dump_norm_is_dumpable_or_repr = true /\
  List.length Gen_vinegar.box_exc_map = 2%nat /\ List.length Gen_vinegar.unbox_exc_map = 3%nat /\
  import_custom default_rflags = false /\ inst_custom default_rflags = false /\
  List.length Gen_vinegar.routed_locally = 2%nat /\ Gen_vinegar.dispatch_exception_unboxes = true /\
  (* the repairs this tree carries: reverting one breaks the tie *)
  Dgen = true /\ mode_safe Mgen = true /\ fast_noargs_only Pgen = true /\ Gen_vinegar.send_exc_reports_dump_failure = true /\
  Gen_vinegar.remote_line_format = "{0}({{}}){1}"%string /\ String.length Gen_vinegar.remote_line_start = 29%nat /\ String.length Gen_vinegar.remote_line_end = 11%nat.
Proof.
  destruct tie_load_guards as [LG LN]. destruct tie_denied as (DT & DV & _). destruct tie_names as (_ & _ & _ & IA & _).
  destruct default_rflags_safe as [RI RC]. destruct tie_routed as [TR _]. destruct tie_repairs as (RD & RM & RF).
  destruct tie_remote_line as (LS & LE & LF).
  split; [exact tie_import_guard|]. split; [exact tie_ladder|]. split; [exact LG|]. split; [exact LN|].
  split; [exact DT|]. split; [exact DV|]. split; [exact IA|]. split; [exact tie_norm|].
  split; [now rewrite tie_box|]. split; [now rewrite tie_unbox|]. split; [exact RI|]. split; [exact RC|].
  split; [now rewrite TR|]. split; [exact tie_dispatch|]. split; [exact RD|].
  split; [revert RM; unfold mode_safe; destruct Mgen; [intros RM; now elim RM|reflexivity..]|].
  split; [exact RF|]. split; [exact tie_send_exc|]. split; [exact LF|]. split; [now rewrite LS|now rewrite LE].
Qed.
Print Assumptions c09_tie.

(* ---------------------------------------------------------------- non-vacuity *)
Definition T := txt.
Definition E0 : env :=
  {| builtins_ns := [(T "ValueError", AExc (Builtin (T "ValueError")) true); (T "OSError", AExc (Builtin (T "OSError")) true);
                     (T "IOError", AExc (Builtin (T "OSError")) true); (T "StopIteration", AExc (Builtin (T "StopIteration")) true);
                     (T "ExceptionGroup", AExc (Builtin (T "ExceptionGroup")) false); (T "int", AOther)];
     modules := [(T "mymod", [(T "Foo", AExc (Custom (T "mymod") (T "Foo")) true); (T "helper", AOther)])];
     importable := [(T "lazy", [(T "Bar", AExc (Custom (T "lazy") (T "Bar")) true)])];
     local_major := T "5" |}.
Definition imm (v : pyval) : obj := {| o_val := v; o_repr := T "?"; o_callable := false |}.
Definition opaque (r : string) : obj := {| o_val := POther 1; o_repr := T r; o_callable := false |}.
Definition method (r : string) : obj := {| o_val := POther 1; o_repr := T r; o_callable := true |}.
(* explicit parameters (the examples must not depend on the generated facts) *)
Definition Pold : vparams := {| fast_noargs_only := true; skip_callables := false |}.
Definition Pnew : vparams := {| fast_noargs_only := true; skip_callables := true |}.
Definition verr : exc :=
  {| e_cls := Builtin (T "ValueError");
     e_args := [imm (PInt 7); opaque "[1, 2]"; imm (PTuple [PStr (T "a"); PNone]); {| o_val := PTuple [PInt 1; POther 1]; o_repr := T "(1, [])"; o_callable := false |}];
     e_dir := [(T "__class__", Some (opaque "<class 'ValueError'>")); (T "_secret", Some (imm (PInt 1)));
               (T "add_note", Some (method "<built-in method add_note>")); (T "args", Some (opaque "(..)"));
               (T "characters_written", None); (T "errno", Some (imm (PInt 2))); (T "payload", Some (opaque "{'k': 1}"));
               (T "with_traceback", Some (method "<built-in method with_traceback>"))] |}.
Definition on : sflags := {| incl_tb := true; incl_ver := true; prop_sysexit := false; prop_kbdint := true |}.
Definition off : sflags := {| incl_tb := false; incl_ver := false; prop_sysexit := true; prop_kbdint := true |}.
Definition R (i c : bool) : rflags := {| import_custom := i; inst_custom := c; inst_oldstyle := false |}.

Example c09_fidelity_hypotheses_met :
  args_entries (e_dir verr) = 1%nat /\ assoc (T "ValueError") (builtins_ns E0) = Some (AExc (Builtin (T "ValueError")) true) /\
  routed off (e_cls verr) = false /\ fast_taken Pold verr = false /\
  vload Mgen (R false false) E0 (vdump Pold on (T "4.0.0") (T "Traceback..") verr) =
    ([ENew (Real (Builtin (T "ValueError")))],
     Ok (LExc (Real (Builtin (T "ValueError")))
              (PTuple [PInt 7; PStr (T "[1, 2]"); PTuple [PStr (T "a"); PNone]; PStr (T "(1, [])")])
              [(PStr (T "add_note"), PStr (T "<built-in method add_note>")); (PStr (T "errno"), PInt 2);
               (PStr (T "payload"), PStr (T "{'k': 1}")); (PStr (T "_remote_version"), PStr (T "4.0.0"))]
              (Done (PStr (T "Traceback..")) true))) /\
  vload Mgen (R true true) E0 (vdump Pnew off (T "4.0.0") (T "Traceback..") verr) =
    ([ENew (Real (Builtin (T "ValueError")))],
     Ok (LExc (Real (Builtin (T "ValueError")))
              (PTuple [PInt 7; PStr (T "[1, 2]"); PTuple [PStr (T "a"); PNone]; PStr (T "(1, [])")])
              [(PStr (T "errno"), PInt 2);           (* Pnew: the method add_note is not sent *)
               (PStr (T "payload"), PStr (T "{'k': 1}")); (PStr (T "_remote_version"), PStr (T "<version denied>"))]
              (Done (PStr (T "<traceback denied>")) false))).
Proof. repeat split. Qed.

(* gating over the 2x2 receiver switches, for: an imported module, an importable one, an unknown one, a non-exception attribute *)
Definition rec0 (m n : string) : pyval := record (T m) (T n) [PInt 1] ([] ++ [version_attr on (T "5.0.1")]) (tb_field on (T "tb")).
Definition cls_of (r : list effect * result lres) : option rcls := match snd r with Ok (LExc c _ _ _) => Some c | _ => None end.
Example c09_gating_matrix :
  map (fun f => (fst (vload Mgen f E0 (rec0 "mymod" "Foo")), cls_of (vload Mgen f E0 (rec0 "mymod" "Foo")))) [R false false; R true false; R false true; R true true] =
    [([ENew (Generic (PStr (T "mymod")) (PStr (T "Foo")))], Some (Generic (PStr (T "mymod")) (PStr (T "Foo"))));
     ([ENew (Generic (PStr (T "mymod")) (PStr (T "Foo")))], Some (Generic (PStr (T "mymod")) (PStr (T "Foo"))));
     ([ENew (Real (Custom (T "mymod") (T "Foo")))], Some (Real (Custom (T "mymod") (T "Foo"))));
     ([ENew (Real (Custom (T "mymod") (T "Foo")))], Some (Real (Custom (T "mymod") (T "Foo"))))] /\
  map (fun f => (fst (vload Mgen f E0 (rec0 "lazy" "Bar")), cls_of (vload Mgen f E0 (rec0 "lazy" "Bar")))) [R false false; R true false; R false true; R true true] =
    [([ENew (Generic (PStr (T "lazy")) (PStr (T "Bar")))], Some (Generic (PStr (T "lazy")) (PStr (T "Bar"))));
     ([EImport (T "lazy"); ENew (Generic (PStr (T "lazy")) (PStr (T "Bar")))], Some (Generic (PStr (T "lazy")) (PStr (T "Bar"))));
     ([ENew (Generic (PStr (T "lazy")) (PStr (T "Bar")))], Some (Generic (PStr (T "lazy")) (PStr (T "Bar"))));
     ([EImport (T "lazy"); ENew (Real (Custom (T "lazy") (T "Bar")))], Some (Real (Custom (T "lazy") (T "Bar"))))] /\
  map (fun f => cls_of (vload Mgen f E0 (rec0 "nosuch" "X"))) [R false false; R true true] =
    [Some (Generic (PStr (T "nosuch")) (PStr (T "X"))); Some (Generic (PStr (T "nosuch")) (PStr (T "X")))] /\
  map (fun f => cls_of (vload Mgen f E0 (rec0 "mymod" "helper"))) [R false false; R true true] =
    [Some (Generic (PStr (T "mymod")) (PStr (T "helper"))); Some (Generic (PStr (T "mymod")) (PStr (T "helper")))] /\
  name_ok (T "mymod") (T "Foo") /\ snd (expected_class Mgen (R true true) E0 (T "lazy") (T "Bar")) = true /\
  text_eqb (T "mymod") BUILTINS = false.
Proof. repeat split. Qed.

(* hostile payloads under the default switches: outcomes differ, effects never contain an import *)
Example c09_hostile_samples :
  map (fun v => vload Mgen default_rflags E0 v)
    [PInt 1; PBool true; PFloat ONE_BITS; PInt 2; PStr (T "boom"); PBytes [x61; x62; x63; x64]; PTuple [PInt 1; PInt 2; PInt 3];
     PTuple [PStr (T "ab"); PTuple []; PTuple []; PStr (T "tb")];
     PTuple [PTuple [PStr (T "builtins"); PStr (T "int")]; PTuple []; PTuple []; PStr (T "tb")];
     PTuple [PTuple [PStr (T "builtins"); PInt 5]; PTuple []; PTuple []; PStr (T "tb")];
     PTuple [PTuple [PStr (T "builtins"); PStr (T "ExceptionGroup")]; PTuple []; PTuple []; PStr (T "tb")];
     PTuple [PTuple [PStr (T "lazy"); PStr (T "Bar")]; PNone; PTuple [PTuple [PStr (T "_remote_version"); PInt 4]]; PInt 9];
     PTuple [PTuple [PStr [0xD800]; PStr (T "Bar")]; PTuple []; PTuple []; PStr (T "tb")];
     PTuple [PTuple [PStr (T "builtins"); PStr (T "ValueError")]; PTuple []; PTuple [PTuple [PStr (T "x"); PInt 1]; PInt 3]; PStr (T "tb")]] =
    [([], Ok LStop); ([], Ok LStop); ([], Ok LStop); ([], Raise TypeError); ([], Ok (LStr (T "boom"))); ([], Raise TypeError); ([], Raise ValueError);
     ([ENew (Generic (PStr (T "a")) (PStr (T "b")))], Ok (LExc (Generic (PStr (T "a")) (PStr (T "b"))) (PTuple []) [] (Done (PStr (T "tb")) false)));
     ([ENew (Generic (PStr (T "builtins")) (PStr (T "int")))], Ok (LExc (Generic (PStr (T "builtins")) (PStr (T "int"))) (PTuple []) [] (Done (PStr (T "tb")) false)));
     ([], Raise TypeError);
     ([ENew (Real (Builtin (T "ExceptionGroup")))], Raise TypeError);
     ([ENew (Generic (PStr (T "lazy")) (PStr (T "Bar")))],
      Ok (LExc (Generic (PStr (T "lazy")) (PStr (T "Bar"))) PNone [(PStr (T "_remote_version"), PInt 4)] (Fail AttributeError)));
     ([], Raise UnicodeError);
     ([ENew (Real (Builtin (T "ValueError")))], Ok (LExc (Real (Builtin (T "ValueError"))) (PTuple []) [(PStr (T "x"), PInt 1)] (Fail TypeError)))].
Proof. reflexivity. Qed.

(* F9 witness (unconditional fast path) and the guarded fast path side by side *)
Example c09_stopiteration_witness :
  arrived (vload Mgen (R false false) E0 (vdump {| fast_noargs_only := false; skip_callables := false |} on (T "5.0.1") (T "tb") stop_x)) = Some (Builtin STOP_ITERATION, PTuple []) /\
  arrived (vload Mgen (R false false) E0 (vdump {| fast_noargs_only := true; skip_callables := false |} on (T "5.0.1") (T "tb") stop_x)) = Some (Builtin STOP_ITERATION, PTuple [PStr (T "x")]) /\
  assoc STOP_ITERATION (builtins_ns E0) = Some (AExc (Builtin STOP_ITERATION) true).
Proof. repeat split. Qed.

Example c09_disclosure_witness :
  vdump Pold off (T "5.0.1") (T "secret traceback") verr = vdump Pold off (T "9.9.9") (T "other") verr /\
  vdump Pold on (T "5.0.1") (T "secret traceback") verr <> vdump Pold on (T "5.0.1") (T "other") verr /\
  routed off (Builtin SYSTEM_EXIT) = true /\ routed on (Builtin SYSTEM_EXIT) = false.
Proof. repeat split. discriminate. Qed.

(* a loaded module with a __getattr__ hook: what each lookup form does under the four receiver switch settings.
   LkGetattr: with instantiate_custom on, "dep" is imported even when import_custom is off;
   LkDictUnlessImport (Mgen, the tree as generated now): the hook is consulted only when both switches are on *)
Definition E1 : env :=
  {| builtins_ns := builtins_ns E0;
     modules := [(T "hookmod", [(T "Plain", AExc (Custom (T "hookmod") (T "Plain")) true);
                                (T "Lazy", ALazy [T "dep"] (Some (Custom (T "dep") (T "Exc"), true)));
                                (T "LazyOther", ALazy [T "dep"; T "dep2"] None)])];
     importable := []; local_major := T "5" |}.
Example c09_module_hook_matrix :
  map (fun f => fst (vload LkGetattr f E1 (rec0 "hookmod" "Lazy"))) [R false false; R true false; R false true; R true true] =
    [[ENew (Generic (PStr (T "hookmod")) (PStr (T "Lazy")))]; [ENew (Generic (PStr (T "hookmod")) (PStr (T "Lazy")))];
     [EImport (T "dep"); ENew (Real (Custom (T "dep") (T "Exc")))]; [EImport (T "dep"); ENew (Real (Custom (T "dep") (T "Exc")))]] /\
  map (fun f => fst (vload LkDictUnlessImport f E1 (rec0 "hookmod" "Lazy"))) [R false false; R true false; R false true; R true true] =
    [[ENew (Generic (PStr (T "hookmod")) (PStr (T "Lazy")))]; [ENew (Generic (PStr (T "hookmod")) (PStr (T "Lazy")))];
     [ENew (Generic (PStr (T "hookmod")) (PStr (T "Lazy")))]; [EImport (T "dep"); ENew (Real (Custom (T "dep") (T "Exc")))]] /\
  fst (vload LkGetattr (R false true) E1 (rec0 "hookmod" "LazyOther")) =
    [EImport (T "dep"); EImport (T "dep2"); ENew (Generic (PStr (T "hookmod")) (PStr (T "LazyOther")))] /\
  fst (vload LkDict (R true true) E1 (rec0 "hookmod" "LazyOther")) = [ENew (Generic (PStr (T "hookmod")) (PStr (T "LazyOther")))] /\
  map (fun M => fst (vload M (R false true) E1 (rec0 "hookmod" "Plain"))) [LkGetattr; LkDictUnlessImport; LkDict] =
    [[ENew (Real (Custom (T "hookmod") (T "Plain")))]; [ENew (Real (Custom (T "hookmod") (T "Plain")))]; [ENew (Real (Custom (T "hookmod") (T "Plain")))]] /\
  mode_safe LkDictUnlessImport = true /\ mode_safe LkDict = true /\ mode_safe LkGetattr = false /\
  text_eqb (T "hookmod") BUILTINS = false /\ name_ok (T "hookmod") (T "Lazy") /\ snd (expected_class LkGetattr (R false true) E1 (T "hookmod") (T "Lazy")) = true.
Proof. repeat split. Qed.

(* the delivering dispatch on the hostile samples: a failure of the loader becomes the request's exception *)
Example c09_dispatch_witness :
  map (fun v => dispatch_exception true (snd (vload Mgen default_rflags E0 v))) [PInt 1; PInt 2; PTuple [PInt 1; PInt 2; PInt 3]; PTuple [PTuple [PStr [0xD800]; PStr (T "Bar")]; PTuple []; PTuple []; PStr (T "tb")]] =
    [ToRequest LStop; FailsRequest TypeError; FailsRequest ValueError; FailsRequest UnicodeError] /\
  dispatch_exception false (snd (vload Mgen default_rflags E0 (PInt 2))) = Escapes TypeError /\
  dispatch_exception true (Raise EOFError) = Escapes EOFError.
Proof. repeat split. Qed.
