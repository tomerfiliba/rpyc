(* C01 — Remote calls compute what a local call would, at any nesting depth.
   Programs are arbitrary finite call trees over two peers: each node runs on one peer, calls its children in order (each on
   either peer, so callbacks nest in both directions to any depth), may catch a child's failure, and finally returns a value
   computed from its children's results or raises.  [eval] is the one-process semantics; the machine is rpyc's: request and
   reply frames with sequence numbers, a waiting caller that serves incoming requests re-entrantly, an idle serving loop.
   PARTIAL in one respect, stated openly: values are natural numbers here; that arguments and results of every shape cross
   unchanged (immutables) or as references to the same object (everything else) is C03/C04's theorems plus this check's
   differential run, not part of this model. *)
(* SCOPE. An exception in the model is the raiser's number plus the ancestry of its class; a call site catches everything, nothing, or
   the classes it names (Python's isinstance test on the ancestry). What the connection does to the class of a failure that crosses
   it is the parameter [xw]: the theorems hold for EVERY xw with the evaluation "seen through the connection" (evalroot xw), and for
   an xw that reproduces classes (the identity: builtin classes always, user-defined ones when the configuration lets the receiver
   rebuild them - C09) that evaluation is the one-process evaluation. Under the default configuration a user-defined class arrives as
   a stand-in: class-selective catching then differs from the local run (c01_selective_catch_refuted_when_class_replaced; known
   finding F46, produced for real by the harness's second phase, whose trees are now run through the model with the table of the
   configuration in force). [xw] is one function per RECEIVING peer (what a class becomes depends on the receiver's configuration), so
   connections whose ends are configured differently are instances too (the harness generates them: c01_asymmetric_sample is one). Classes
   the code never sends back at all
   are excluded: KeyboardInterrupt (and SystemExit when configured so) raised by a callee is re-raised in the callee's serving
   thread instead of being answered (propagate_*_locally: known finding F26 under C08) and exception groups are not rebuilt (F10
   under C09) - the machine answers every request, so a tree raising those is not described by these theorems; the harness does
   not generate them. Still outside the model: (b) that a result/argument of any SHAPE is the same value or a reference to the
   same object (C03/C04; run differentially here); (c) the machine's waits have no expiry: the real sync_request_timeout (30 s by
   default) turns a callee that runs longer into a TimeoutError at the caller (timeouts are C15's). *)
From V Require Import lib.Base model.CallTree proofs.CallTreeP proofs.CallTreeTie gen.Gen_calls.
From Coq Require Import Relations.

(* 0. for EVERY behaviour xw of the connection towards exception classes and every call tree, the two-peer machine reaches a
      quiescent state - both stacks and both inboxes empty - whose result and sequence of node invocations are those of the
      evaluation seen through the connection; every execution that delivers a result delivers that one; none deadlocks: an unfinished state
      has a step and can still reach that final state (with c01_deterministic, below, it must: none diverges) *)
Theorem c01_machine_is_evaluation_through_connection : forall xw root,
  (exists f' : side -> peer,
     steps xw (init root) (mk f' (fst (evalroot xw root)) (Some (snd (evalroot xw root)))) /\
     stack (f' SA) = [] /\ stack (f' SB) = [] /\ inbox (f' SA) = [] /\ inbox (f' SB) = [])
  /\ (forall y o, steps xw (init root) y -> result y = Some o -> o = snd (evalroot xw root) /\ log y = fst (evalroot xw root))
  /\ (forall y, steps xw (init root) y -> result y = None ->
        (exists y', step xw y y') /\ exists f', steps xw y (mk f' (fst (evalroot xw root)) (Some (snd (evalroot xw root))))).
Proof.
  intros xw root. split; [apply distributed_eq_local|split].
  - intros y o. apply every_execution_is_local.
  - intros y. apply no_deadlock_before_result.
Qed.
Print Assumptions c01_machine_is_evaluation_through_connection.

Section ClassesReproduced.
Variable xw : side -> list nat -> list nat.
Hypothesis reproduced : forall t m, xw t m = m.

(* 1. when the connection reproduces exception classes: for every call tree - any exception classes, any class-selective catching at
      any level - the two-peer machine reaches a quiescent state whose result and whose sequence of node invocations are exactly
      those of the local evaluation *)
Theorem c01_dist_eq_local_partial : forall root, exists f' : side -> peer,
  steps xw (init root) (mk f' (fst (eval root)) (Some (snd (eval root)))) /\
  stack (f' SA) = [] /\ stack (f' SB) = [] /\ inbox (f' SA) = [] /\ inbox (f' SB) = [].
Proof. intros root. rewrite <- (evalroot_id xw reproduced). apply distributed_eq_local. Qed.

(* 2. and that is what EVERY execution does, whatever the interleaving of the two peers: any reachable state that holds a result
      holds the local result, with the invocation log of the local evaluation (each node invoked exactly once, in the same
      order, the exception raised at one level surfacing exactly where the local run catches or propagates it) *)
Theorem c01_every_execution : forall root y o, steps xw (init root) y -> result y = Some o ->
  o = snd (eval root) /\ log y = fst (eval root).
Proof. intros root. rewrite <- (evalroot_id xw reproduced). apply every_execution_is_local. Qed.

(* 3. no execution deadlocks before the result is delivered, and the final state stays reachable (steps being functional -
      c01_deterministic - it is then reached: no execution diverges) *)
Theorem c01_no_deadlock : forall root y, steps xw (init root) y -> result y = None ->
  (exists y', step xw y y') /\ exists f', steps xw y (mk f' (fst (eval root)) (Some (snd (eval root)))).
Proof. intros root. rewrite <- (evalroot_id xw reproduced). apply no_deadlock_before_result. Qed.
End ClassesReproduced.
Print Assumptions c01_dist_eq_local_partial.
Print Assumptions c01_every_execution.
Print Assumptions c01_no_deadlock.

(* 1b. when a class is NOT reproduced (the default configuration replaces a user-defined class by a stand-in derived from Exception):
      a call site that names the class catches the failure in one process and misses it across the connection. Classes: 0 BaseException,
      1 Exception, 5 a user-defined subclass of Exception, 8 its stand-in, 9 the stand-in's generic base. *)
Definition default_table : list (nat * list nat) := [(5, [8; 9; 1; 0])].
Definition selective : node := Node SA 1 [(Node SB 2 [] [5; 1; 0], CatchOnly [5])] [].
Theorem c01_selective_catch_refuted_when_class_replaced :
  eval selective = ([1; 2], Val 1) /\ evalroot (fun _ => xw_table default_table) selective = ([1; 2], Exc (2, [8; 9; 1; 0]))
  /\ result (exec (fun _ => xw_table default_table) 50 (init selective)) = Some (Exc (2, [8; 9; 1; 0]))
  /\ (* a site naming Exception still catches it *)
     evalroot (fun _ => xw_table default_table) (Node SA 1 [(Node SB 2 [] [5; 1; 0], CatchOnly [1])] []) = ([1; 2], Val 1).
Proof. vm_compute. repeat split. Qed.
Print Assumptions c01_selective_catch_refuted_when_class_replaced.

(* 4. at most one peer can move at any time, and its move is determined (the machine is sequential, like the local run) *)
Theorem c01_deterministic : forall xw root y y1 y2, steps xw (init root) y -> step xw y y1 -> step xw y y2 -> y1 = y2.
Proof. intros xw root y y1 y2 H. apply step_functional. eapply tok_steps; [apply tok_init|exact H]. Qed.
Print Assumptions c01_deterministic.

(* 5. the extracted runner used by the harness performs steps of this machine *)
Theorem c01_runner_is_the_machine : forall xw fuel y, steps xw y (exec xw fuel y).
Proof. exact exec_steps. Qed.
Print Assumptions c01_runner_is_the_machine.

(* 6. tie: the call path of the source (netref call -> sync request = async request + value; value waits by serving; the handler
      applies the target once with the positional and keyword arguments) *)
Theorem c01_tie : Gen_calls.sync_request_is_async_value = true /\ Gen_calls.handle_call_applies_target_once = true
  /\ Gen_calls.handle_callattr_is_getattr_then_call = true /\ Gen_calls.netref_call_sends_args_and_kwargs_items = true
  /\ Gen_calls.value_waits_then_returns_or_raises = true /\ Gen_calls.wait_serves_while_waiting = true.
Proof. exact tie_calls. Qed.
Print Assumptions c01_tie.

(* non-vacuity: A calls B, which calls back into A twice (one callback raises a KeyError-like class [4;3;1;0] and is caught on B by a
   site naming its base 3), then A calls a local child that raises a ValueError-like class uncaught by a site naming 4: the machine's
   result and log equal the local ones *)
Definition sample : node :=
  Node SA 1 [(Node SB 2 [(Node SA 3 [] [], CatchOnly []); (Node SA 4 [(Node SB 5 [] [4; 3; 1; 0], CatchOnly [2])] [], CatchOnly [3])] [], CatchOnly []);
             (Node SA 6 [] [2; 1; 0], CatchOnly [4])] [].
Example c01_sample : let y := exec (fun _ m => m) 200 (init sample) in
  result y = Some (snd (eval sample)) /\ log y = fst (eval sample) /\ snd (eval sample) = Exc (6, [2; 1; 0]) /\ fst (eval sample) = [1; 2; 3; 4; 5; 6].
Proof. vm_compute. repeat split. Qed.
(* non-vacuity for differently configured ends: A (default) does not reproduce the user-defined class 5, B does. B's failure caught by
   A's site naming 5 is missed (A receives the stand-in), A's failure caught by B's site naming 5 is caught (B reproduces it) *)
Example c01_asymmetric_sample :
  let xw := fun t => match t with SA => xw_table default_table | SB => fun m => m end in
  evalroot xw (Node SA 1 [(Node SB 2 [] [5; 1; 0], CatchOnly [5])] []) = ([1; 2], Exc (2, [8; 9; 1; 0]))
  /\ evalroot xw (Node SA 1 [(Node SB 2 [(Node SA 3 [] [5; 1; 0], CatchOnly [5])] [], CatchOnly [])] []) = ([1; 2; 3], Val 3)
  /\ result (exec xw 80 (init (Node SA 1 [(Node SB 2 [(Node SA 3 [] [5; 1; 0], CatchOnly [5])] [], CatchOnly [])] []))) = Some (Val 3).
Proof. vm_compute. repeat split. Qed.
