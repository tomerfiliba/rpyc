(* C16 — A server keeps serving good clients correctly whatever bad clients do.

   Reading guide: see props/C17.v for the model (model/Server.v).  A client's traffic is [ESend c bs] with ANY byte string
   [bs], at any time, any number of times, and [ELeave c abrupt] at any point; what a reader makes of the bytes in a
   connection's buffer is [next_input]: a complete frame carrying a request ([NReq]), a complete frame that raises (garbage
   payload, corrupt compressed data: [NBad]), an empty payload ([NNop]), an incomplete frame -- truncated, absurd length,
   fewer than five bytes -- on which the reader BLOCKS ([NBlock]), or nothing.  [decomp] and [decode] (zlib, brine + dispatch)
   are arbitrary functions.  Authentication behaviour of a client: pass, fail, never finish.
   Each connection record carries its endpoint: the service instance made for it (class registered) and its table of exported
   objects; [ep_of c l] is the pure semantics of an endpoint that served the requests [l]. *)
From V Require Import lib.Base lib.Sx model.Server proofs.ServerP proofs.ServerTie gen.Gen_server.

Section C16.
Variable decomp : list byte -> option (list byte).
Variable decode : list byte -> option req.
Variable K : cfg.
Notation step := (Server.step decomp decode K).
Notation reach := (Server.reach decomp decode K).
Notation reach_by := (Server.reach_by decomp decode K).
Notation next_input := (Server.next_input decomp decode).

(* SCOPE of 1(a) and 3 for the thread pool: connections are identified with their table keys, which the model never reuses (see the SCOPE note
   at c17_pool_single_owner: descriptor-number reuse is checked by the harness op `hookhold`).  2(a): [EAcceptFail] is an error of
   listener.accept(); [ESpawnFail] is the failure to START the worker for an accepted client (spawn / os.fork at the thread or process
   limit: harness op `nospawn`, finding accept-loop-ended-on-spawn-failure:threaded, fact accept_survives_spawn_failure). *)
(* 1. isolation.  (a) Nothing a client does, and nothing the server does on behalf of that client -- accepting it, serving,
      failing, dropping it -- changes the record (service instance, table, buffers, replies) of any OTHER connection. *)
Theorem c16_isolation_noninterference : forall s e s', kind K <> OneShot -> e <> EClose -> e <> EAcceptFail ->
  (e = ESpawnFail -> Server.accept_survives_spawn_failure (fx K) = true) -> step e s = Some s' ->
  forall x, subject s e <> Some x -> conns s' x = conns s x.
Proof. exact (noninterference decomp decode K). Qed.
(*    (b) With a service class registered, a connection's service instance, table and replies are a function of the
      requests served on that very connection. *)
Theorem c16_isolation_endpoint : forall s, class_svc K = true -> reach s ->
  forall c, (own (conns s c), table (conns s c), out (conns s c)) = ep_of K c (hist (conns s c)).
Proof.
  intros s Hc [l R]. induction R; intros c.
  - reflexivity.
  - specialize (IHR c). destruct (step_ep decomp decode K _ _ _ H c) as [E|(q & rest & Hn & E)].
    + unfold ep4 in E. inversion E. congruence.
    + destruct (serve_req K c (if class_svc K then own (conns s c) else shared s) (table (conns s c)) q) as [[v' tb'] r] eqn:Sr.
      rewrite (ep4_served K s c q rest _ _ _ Sr) in E. unfold ep4 in E. injection E as e1 e2 e3 e4. rewrite e1, e2, e3, e4.
      unfold ep_of. rewrite ep_run_snoc. fold (ep_of K c (hist (conns s c))). rewrite <- IHR. rewrite Hc in *. rewrite Sr. reflexivity.
Qed.
(*    (c) The endpoint changes only by serving a request decoded from that connection's own buffer. *)
Theorem c16_isolation_own_bytes : forall s e s', step e s = Some s' ->
  forall x, ep4 (conns s' x) = ep4 (conns s x)
            \/ exists q rest, next_input (inb (conns s x)) = NReq q rest /\ ep4 (conns s' x) = ep4 (served_conn K s x q rest).
Proof. exact (step_ep decomp decode K). Qed.
(*    (d) References never leak: a connection resolves only ids it was itself given in a reply, and (class registered) an id
      harvested on another connection never resolves. *)
Theorem c16_only_given_ids_resolve : forall s, reach s -> forall x o, omem o (table (conns s x)) = true -> In (POid o) (out (conns s x)).
Proof. intros s R x o H. apply omem_In in H. now apply (tabinv_reach decomp decode K s R x). Qed.
Theorem c16_foreign_id_never_resolves : forall s, class_svc K = true -> reach s ->
  forall x y o, x <> y -> In (POid o) (out (conns s y)) -> omem o (table (conns s x)) = false.
Proof.
  intros s Hc R x y o N Hy. destruct (omem o (table (conns s x))) eqn:M; [exfalso|reflexivity]. apply omem_In in M.
  destruct (tabinv_reach decomp decode K s R x) as (_ & I2 & _). destruct (tabinv_reach decomp decode K s R y) as (_ & _ & I3).
  specialize (I2 o M). specialize (I3 o Hy). unfold owner in *. rewrite Hc in *. congruence.
Qed.

(* 2. confinement (threaded and forking servers; the one-shot server for its single client).
      (a) Whatever the clients did, as long as nobody called close() the accept loop takes the next queued connection --
      provided accept() itself did not fail with an OS error ([EAcceptFail]: descriptor limit reached, connection aborted), or the
      tree's accept loop survives such errors (fact accept_survives_oserror), and likewise for a worker thread / child process that
      cannot be started ([ESpawnFail], fact accept_survives_spawn_failure).  On a tree that does not, see c16_accept_error_refuted and
      c16_spawn_failure_refuted: the accept loop ends and start() closes the server, throwing every client out. *)
Theorem c16_accept_stays_enabled : forall l s, kind K = Threaded \/ kind K = Forking -> reach_by l s -> ~ In EClose l ->
  (Server.accept_survives_oserror (fx K) = true \/ ~ In EAcceptFail l) ->
  (Server.accept_survives_spawn_failure (fx K) = true \/ ~ In ESpawnFail l) ->
  backlog s <> [] -> exists s', step EAccept s = Some s'.
Proof.
  intros l s Hk R Nc Nf Ns Hb. apply (accept_stays_enabled decomp decode K l s); auto.
  - destruct Hk; congruence.
  - apply (threaded_forking_never_busy decomp decode K s Hk). now exists l.
Qed.
(*    (a') A client for which no worker can be started costs that client and nobody else: the server stays open, every other
      connection's record is untouched, the client's socket is closed and forgotten, no disconnect hook runs for a connection that never
      existed, and (by (a)) the loop goes on to the next queued connection. *)
Theorem c16_spawn_failure_costs_one : forall s c rest s', kind K <> OneShot -> Server.accept_survives_spawn_failure (fx K) = true ->
  backlog s = c :: rest -> step ESpawnFail s = Some s' ->
  closed s' = closed s /\ (forall x, x <> c -> conns s' x = conns s x)
  /\ stg (conns s' c) = Finished /\ shut (conns s' c) = true /\ authd (conns s' c) = authd (conns s c) /\ hooks (conns s' c) = hooks (conns s c)
  /\ mem c (clients s') = false /\ workers s' = workers s.
Proof.
  intros s c rest s' Nk Hf Hb H. unfold Server.step in H. rewrite Hb in H.
  destruct (active s && lopen s && is_none (busy s) && spawns K) eqn:G; [|discriminate H]. injection H as <-.
  apply andb_prop in G. destruct G as [_ Hsp].
  destruct (spawn_fail_frame K c rest s Nk Hf) as [Ec Eo]. split; [exact Ec|]. split; [exact Eo|].
  rewrite workers_spawn_fail. unfold spawn_fail. rewrite Hf, finish_own_spawned by exact Nk.
  unfold fo_core. cbn [conns clients with_clients set_conn with_conns]. rewrite upd_same, (accept_spawns_conn K s c rest Hsp), mem_rm_same.
  repeat split.
Qed.
(*    (b) A well-behaved client's next request is served by its own worker from its own state, with the reply of its own
      endpoint -- no hypothesis about any other connection. *)
Theorem c16_good_client_served : forall s c q rest,
  stg (conns s c) = Own -> authd (conns s c) = true -> shut (conns s c) = false -> next_input (inb (conns s c)) = NReq q rest ->
  exists s', step (EWork c) s = Some s' /\ out (conns s' c) = out (conns s c) ++ [reply_of K s c q]
             /\ (is_close q = false -> stg (conns s' c) = Own /\ shut (conns s' c) = false /\ inb (conns s' c) = rest).
Proof.
  intros s c q rest Hs Ha Hsh Hn. unfold Server.step, Server.work. rewrite Hs, Ha, Hsh, Hn. cbn [negb].
  destruct (is_close q) eqn:Eq; eexists; (split; [reflexivity|]).
  - assert (E := ep4_finish_own K c (serve_on K s c q rest) c). unfold ep4 in E. injection E as _ _ e3 _.
    rewrite e3, serve_on_same, served_conn_out. split; [reflexivity|discriminate].
  - rewrite serve_on_same, served_conn_out. split; [reflexivity|]. intros _.
    destruct (served_conn_noclose K s c q rest Eq) as (-> & -> & ->). auto.
Qed.
(*    (2(b) is one unfolding of the worker's step function: its content is that the step has NO hypothesis about other connections.)
      (c) A worker's failure -- a frame that raises, or one that ends in a BaseException -- is confined to its connection: that
      connection is closed, its hook runs (once), its socket is shut down and leaves Server.clients; the server stays active and
      every other connection's record is untouched. *)
Theorem c16_worker_failure_confined : forall s c rest, kind K <> OneShot -> reach s ->
  stg (conns s c) = Own -> authd (conns s c) = true -> shut (conns s c) = false ->
  (next_input (inb (conns s c)) = NBad rest \/ next_input (inb (conns s c)) = NKill rest) ->
  exists s', step (EWork c) s = Some s'
    /\ stg (conns s' c) = Finished /\ hooks (conns s' c) = 1 /\ shut (conns s' c) = true /\ cclosed (conns s' c) = true
    /\ clients s' = rm c (clients s) /\ active s' = active s /\ (forall x, x <> c -> conns s' x = conns s x).
Proof.
  intros s c rest Nk R Hs Ha Hsh Hn. pose proof (hooks_closed decomp decode K s c R) as Hh. eexists. split.
  { unfold Server.step, Server.work. rewrite Hs, Ha, Hsh. cbn [negb]. destruct Hn as [-> | ->]; reflexivity. }
  rewrite finish_own_spawned by exact Nk. unfold fo_core. cbn [conns clients active with_clients set_conn with_conns]. rewrite !upd_same.
  cbn [stg hooks shut cclosed k_stage k_shut]. rewrite close_conn_hooks, close_conn_cclosed. cbn [authd cclosed hooks k_inb]. rewrite Ha, Hh.
  destruct (cclosed (conns s c)); repeat split; intros x Nx; now rewrite !upd_other.
Qed.

(* 3. the thread pool.  Wherever a connection with a complete request is, its next step is enabled -- except when it waits
      in the active queue and no worker is free.
      [NReq] is a message the worker can process without waiting for the client again; a complete message that makes the server
      wait for THIS client (a nested request it never answers, a reply it never reads) is [NStall]: the worker blocks on it exactly as on
      an unfinished frame, and F7's witness applies to it unchanged.
      FULL STATEMENT (c16_pool_liveness; provable part: c16_pool_liveness_partial): every well-behaved client with a pending request is eventually served under any
      fair scheduling of the server's threads.  It is FALSE on this tree (finding F7): see the refutation below. *)
Theorem c16_pool_liveness_partial : forall s c q rest, kind K = Pool -> active s = true -> mem c (fdmap s) = true ->
  next_input (inb (conns s c)) = NReq q rest ->
  (mem c (pollset s) = true -> exists s', step (EPoll c false) s = Some s')
  /\ (forall w r, nth_error (workers s) w = Some None -> queue s = c :: r ->
        exists s1 s2, step (ETake w) s = Some s1 /\ step (EServe w) s1 = Some s2
                      /\ out (conns s2 c) = out (conns s c) ++ [reply_of K s c q])
  /\ (forall w n, nth_error (workers s) w = Some (Some (c, S n)) ->
        exists s', step (EServe w) s = Some s' /\ out (conns s' c) = out (conns s c) ++ [reply_of K s c q]).
Proof. exact (pool_next_step_enabled decomp decode K). Qed.
(* 4. no pool worker thread ever dies -- on a tree whose _serve_requests catches a BaseException that is not an Exception
      (a client can make the server raise SystemExit: unsolicited reply with a remote reference, nested HANDLE_INSPECT answered
      with an exception record).  [(c, 0)] in a worker slot is the model's "this thread died while it held c". *)
Theorem c16_no_worker_dies : forall s, Server.pool_catches_base (fx K) = true -> reach s -> no_dead_worker s.
Proof. exact (no_dead_worker_when_caught decomp decode K). Qed.
End C16.
Print Assumptions c16_isolation_noninterference.
Print Assumptions c16_isolation_endpoint.
Print Assumptions c16_isolation_own_bytes.
Print Assumptions c16_only_given_ids_resolve.
Print Assumptions c16_foreign_id_never_resolves.
Print Assumptions c16_accept_stays_enabled.
Print Assumptions c16_spawn_failure_costs_one.
Print Assumptions c16_good_client_served.
Print Assumptions c16_worker_failure_confined.
Print Assumptions c16_pool_liveness_partial.
Print Assumptions c16_no_worker_dies.

(* Refutation of 2(a) on a tree whose accept loop does not survive an OS error of accept(): one served client, then accept() fails
   (EMFILE): the server is closed although nobody called close(), and the client has been thrown out. *)
Theorem c16_accept_error_refuted : forall decomp decode K, kind K = Threaded -> has_auth K = false ->
  Server.accept_survives_oserror (fx K) = false ->
  exists s, exec decomp decode K [EConnect 1 AuthOk; EAccept; EWork 1; EAcceptFail] (init K) = Some s
    /\ closed s = true /\ active s = false /\ shut (conns s 1) = true /\ authd (conns s 1) = true /\ gone (conns s 1) = false.
Proof.
  intros decomp decode [k [f1 f2 f3 f4 f5 f6 f7 f8] au cls nw bt ar]. cbn [kind fx has_auth Server.accept_survives_oserror]. intros -> -> ->.
  (* evaluated once; t names the final state, so the term does not repeat it *)
  eexists. split; [vm_compute; reflexivity|]. match goal with |- closed ?s = true /\ _ => set (t := s) end. repeat split.
Qed.
Print Assumptions c16_accept_error_refuted.

(* Refutation of 2(a') on a tree that lets the failure to start a worker leave accept(): one served client, a second one connects while
   the thread limit is reached: the server is closed although nobody called close(), and the FIRST client has been thrown out (F96). *)
Theorem c16_spawn_failure_refuted : forall decomp decode K, kind K = Threaded -> has_auth K = false ->
  Server.accept_survives_spawn_failure (fx K) = false ->
  exists s, exec decomp decode K [EConnect 1 AuthOk; EAccept; EWork 1; EConnect 2 AuthOk; ESpawnFail] (init K) = Some s
    /\ closed s = true /\ active s = false /\ shut (conns s 1) = true /\ authd (conns s 1) = true /\ gone (conns s 1) = false.
Proof.
  intros decomp decode [k [f1 f2 f3 f4 f5 f6 f7 f8] au cls nw bt ar]. cbn [kind fx has_auth Server.accept_survives_spawn_failure]. intros -> -> ->.
  eexists. split; [vm_compute; reflexivity|]. match goal with |- closed ?s = true /\ _ => set (t := s) end. repeat split.
Qed.
Print Assumptions c16_spawn_failure_refuted.
(* non-vacuity of c16_spawn_failure_costs_one: on the generated facts the event is enabled for a threaded server with a queued client *)
Example c16_spawn_failure_enabled : forall decomp decode,
  let K := {| kind := Threaded; fx := gen_facts; has_auth := false; class_svc := true; nworkers := 0; batch := 1; auth_replaces := false |} in
  exists s s', exec decomp decode K [EConnect 1 AuthOk] (init K) = Some s /\ backlog s = [1] /\ Server.step decomp decode K ESpawnFail s = Some s'.
Proof. intros decomp decode K. eexists _, _. repeat split. Qed.

(* Refutation of pool liveness (F7): nbThreads = 2, two clients that sent a truncated frame (header promises 10 bytes) and stay
   connected, one well-behaved client with a complete request.  Both workers sit in Channel.recv; the good client's
   connection waits in the active queue; the server is running and NO thread of it can take a step. *)
Theorem c16_pool_liveness_refuted : forall f,
  match exec w_decomp w_decode (w_pool f false) starve_history (init (w_pool f false)) with
  | Some s => active s = true /\ Server.quiescent w_decomp w_decode (w_pool f false) s
              /\ stg (conns s 3) = Pooled /\ gone (conns s 3) = false /\ queue s = [3]
              /\ Server.next_input w_decomp w_decode (inb (conns s 3)) = NReq QRoot [] /\ out (conns s 3) = []
              /\ workers s = [Some (1, 10); Some (2, 10)]
              /\ Server.next_input w_decomp w_decode (inb (conns s 1)) = NBlock /\ gone (conns s 1) = false
              /\ Server.next_input w_decomp w_decode (inb (conns s 2)) = NBlock /\ gone (conns s 2) = false
  | None => False
  end.
Proof.
  intros [f1 f2 f3 f4 f5 f6 f7 f8].
  (* r: the run, evaluated once; t as above *)
  match goal with |- match ?x with _ => _ end => set (r := x) end.
  vm_compute in r. subst r. cbv beta iota. match goal with |- active ?s = true /\ _ => set (t := s) end.
  split; [reflexivity|]. split.
  - (* stuck: no backlog; 1-3 pooled, beyond fresh; poll set empty; both workers in a blocked read *)
    intros e He. destruct e; try discriminate He.
    + (* EAccept *) reflexivity.
    + (* EWork *) destruct c as [|[|[|[|c]]]]; reflexivity.
    + (* EPoll *) destruct c as [|[|[|[|c]]]]; reflexivity.
    + (* ETake *) destruct w as [|[|[|w]]]; reflexivity.
    + (* EServe *) destruct w as [|[|[|w]]]; reflexivity.
  - repeat split.
Qed.
Print Assumptions c16_pool_liveness_refuted.
(* Refutation of "keeps accepting" for the thread pool with an authenticator: authentication runs inside the accept loop, so a
   client that connects and never finishes it keeps every later client in the listener's queue. *)
Theorem c16_pool_accept_blocked_refuted : forall f,
  match exec w_decomp w_decode (w_pool f true) [EConnect 1 AuthStall; EAccept; EConnect 2 AuthOk] (init (w_pool f true)) with
  | Some s => active s = true /\ closed s = false /\ Server.quiescent w_decomp w_decode (w_pool f true) s
              /\ backlog s = [2] /\ busy s = Some 1 /\ gone (conns s 1) = false /\ stg (conns s 2) = Backlog
  | None => False
  end.
Proof.
  intros [f1 f2 f3 f4 f5 f6 f7 f8].
  match goal with |- match ?x with _ => _ end => set (r := x) end.
  vm_compute in r. subst r. cbv beta iota. match goal with |- active ?s = true /\ _ => set (t := s) end.
  split; [reflexivity|]. split; [reflexivity|]. split.
  - (* stuck: the accept loop waits on 1's authentication; nothing pooled, queued or held *)
    intros e He. destruct e; try discriminate He.
    + (* EAccept *) reflexivity.
    + (* EWork *) destruct c as [|[|[|c]]]; reflexivity.
    + (* EPoll *) destruct c as [|[|[|c]]]; reflexivity.
    + (* ETake *) destruct w as [|[|[|w]]]; reflexivity.
    + (* EServe *) destruct w as [|[|[|w]]]; reflexivity.
  - repeat split.
Qed.
Print Assumptions c16_pool_accept_blocked_refuted.

(* Refutation of 4 on a tree that does not catch it: nbThreads = 2, two clients each make one worker raise SystemExit, one
   well-behaved client: both worker threads are dead, the good request waits in the queue, no thread of the running server
   can take a step.  On a tree that catches it the same history drops the two connections and serves the good client. *)
Theorem c16_pool_worker_death_refuted :
  match exec w_decomp k_decode (w_pool (k_facts false) false) kill_history (init (w_pool (k_facts false) false)) with
  | Some s => active s = true /\ Server.quiescent w_decomp k_decode (w_pool (k_facts false) false) s
              /\ workers s = [Some (1, 0); Some (2, 0)] /\ queue s = [3] /\ gone (conns s 3) = false
              /\ Server.next_input w_decomp k_decode (inb (conns s 3)) = NReq QRoot [] /\ out (conns s 3) = []
  | None => False
  end.
Proof.
  match goal with |- match ?x with _ => _ end => set (r := x) end.
  vm_compute in r. subst r. cbv beta iota. match goal with |- active ?s = true /\ _ => set (t := s) end.
  split; [reflexivity|]. split.
  - (* stuck: both workers dead, poll set empty; the good request waits in the queue *)
    intros e He. destruct e; try discriminate He.
    + (* EAccept *) reflexivity.
    + (* EWork *) destruct c as [|[|[|[|c]]]]; reflexivity.
    + (* EPoll *) destruct c as [|[|[|[|c]]]]; reflexivity.
    + (* ETake *) destruct w as [|[|[|w]]]; reflexivity.
    + (* EServe *) destruct w as [|[|[|w]]]; reflexivity.
  - repeat split.
Qed.
Print Assumptions c16_pool_worker_death_refuted.
Theorem c16_pool_worker_survives_when_caught :
  match exec w_decomp k_decode (w_pool (k_facts true) false) (kill_history ++ [ETake 0; EServe 0]) (init (w_pool (k_facts true) false)) with
  | Some s => out (conns s 3) = [POid (3, 0)] /\ stg (conns s 1) = Finished /\ hooks (conns s 1) = 1 /\ stg (conns s 2) = Finished
              /\ fdmap s = [3] /\ workers s = [Some (3, 9); None]
  | None => False
  end.
Proof.
 vm_compute. repeat split. 
Qed.
Print Assumptions c16_pool_worker_survives_when_caught.

(* The model is the one the current source was translated to. *)
Theorem c16_program_is_current :
  Gen_server.accept_prog = Server.accept_prog_of Gen_server.accept_survives_oserror Gen_server.accept_rechecks_closed Gen_server.accept_survives_spawn_failure /\ Gen_server.worker_prog = Server.worker_prog_of Gen_server.worker_tracks_served
  /\ Gen_server.serve_client_prog = Server.serve_client_prog /\ Gen_server.handle_prog = Server.handle_prog
  /\ Gen_server.threaded_prog = Server.threaded_prog /\ Gen_server.forking_prog = Server.forking_prog
  /\ Gen_server.pool_accept_prog = Server.pool_accept_prog_of Gen_server.pool_fail_discards
  /\ Gen_server.pool_build_prog = Server.pool_build_prog /\ Gen_server.poll_result_prog = Server.poll_result_prog
  /\ Gen_server.poller_prog = Server.poller_prog /\ Gen_server.serve_requests_prog = Server.serve_requests_prog_of Gen_server.pool_catches_base
  /\ Gen_server.pool_worker_prog = Server.pool_worker_prog
  /\ Gen_server.connect_instantiates_class = true /\ Gen_server.conn_tables_fresh = true
  /\ Gen_server.pool_spawns_nbthreads_workers_and_one_poller = true /\ Gen_server.serve_ignores_empty_payload = true.
Proof.
  pose proof tie_base_progs. pose proof tie_accept_methods. pose proof tie_pool_progs. pose proof tie_endpoint_facts.
  pose proof tie_pool_accept. intuition.
Qed.
Print Assumptions c16_program_is_current.

(* non-vacuity *)
Definition KT16 (k : skind) (cls : bool) : cfg :=
  {| kind := k; fx := {| Server.pool_close_drops := true; Server.pool_fail_discards := true; Server.fork_parent_keeps := false; Server.pool_catches_base := false;
             Server.worker_tracks_served := false; Server.accept_survives_oserror := false; Server.accept_rechecks_closed := false;
             Server.accept_survives_spawn_failure := false |};
     has_auth := false; class_svc := cls; nworkers := 2; batch := 10; auth_replaces := false |}.
Definition d16 (b : list byte) : option req :=
  if bytes_eqb b [x51] then Some QRoot else if bytes_eqb b [x52] then Some (QMake (1, 0)) else if bytes_eqb b [x53] then Some (QStr (1, 1)) else None.
Definition fr (p : byte) : list byte := [x00; x00; x00; x01; x00; p; x0a].
(* threaded: client 2 sends garbage (its worker dies, hook runs); client 1's requests are answered from its own endpoint;
   client 3 tries the id client 1 was given: it does not resolve *)
Example c16_threaded_history :
  match exec w_decomp d16 (KT16 Threaded true)
          [EConnect 1 AuthOk; EConnect 2 AuthOk; EConnect 3 AuthOk; EAccept; EAccept; EAccept; EWork 1; EWork 2; EWork 3;
           ESend 1 (fr x51); EWork 1; ESend 2 (fr xff); EWork 2; ESend 1 (fr x52); EWork 1; ESend 3 (fr x53); EWork 3;
           ESend 1 (fr x53); EWork 1] (init (KT16 Threaded true)) with
  | Some s => out (conns s 1) = [POid (1, 0); POid (1, 1); POk] /\ out (conns s 3) = [PErr]
              /\ stg (conns s 2) = Finished /\ hooks (conns s 2) = 1 /\ stg (conns s 1) = Own /\ active s = true
              /\ clients s = [1; 3]
  | None => False
  end.
Proof. vm_compute. repeat split. Qed.
(* pool: a garbage frame costs its sender nothing but the frame; the good client is served *)
Example c16_pool_history :
  match exec w_decomp d16 (KT16 Pool true)
          [EConnect 1 AuthOk; EConnect 2 AuthOk; EAccept; EAccept; ESend 2 (fr xff); EPoll 2 false; ETake 0; EServe 0; ETake 0; EServe 0;
           ESend 1 (fr x51); EPoll 1 false; ETake 1; EServe 1; EServe 1] (init (KT16 Pool true)) with
  | Some s => out (conns s 1) = [POid (1, 0)] /\ workers s = [None; None] /\ queue s = [] /\ pollset s = [2; 1] /\ fdmap s = [1; 2]
              /\ hooks (conns s 2) = 0 /\ stg (conns s 2) = Pooled
  | None => False
  end.
Proof. vm_compute. repeat split. Qed.
