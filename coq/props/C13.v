(* C13 — Threads sharing a connection never cross, duplicate or lose replies.
   Every statement holds in every state reachable under any scheduler, any number of client threads and
   background serving threads, any order of answers by the peer, with nondeterministic timeouts.
   SCOPE. The transition system has client threads that issue one request each and wait for it - with or without an expiry (LExpire: the
   clock passes a request's expiry; a reply dispatched afterwards is dropped and the waiter gives up: theorems c13_late_* below; the
   timing of expiries is C15's) -, timeouts that end a poll or a condition wait, background serving threads, and a peer that answers with by-value replies in any
   order; dispatching a reply is one step. An incoming REQUEST of the peer is, for every other thread, a message whose issuer is not looking (it is
   read under the lock, the lock is released and the sleepers are notified before it is dispatched, its dispatch touches nobody else's result): the
   harness maps it to an `issue` by a thread identifier that never steps again, and c13_inbound_* below prove what that reading needs (proofs/ServeI.v).
   Exception replies are exercised by the harness only.
   Liveness: [c13_no_deadlock] is progress (some thread can step while a reply is in the stream); that every request completes is
   refuted for deadline-free waits (last theorem) and not proved otherwise. *)
From V Require Import lib.Base model.Serve proofs.ServeP proofs.ServeF proofs.ServeI proofs.ServeTie gen.Gen_serve.

Section C13.
Variable servers : nat -> bool.
Variable s : st.
Hypothesis R : reach (init servers) s.

(* 1. each incoming message is taken from the stream by the receive-lock holder only (at most one thread polls/reads),
      and is dispatched at most once *)
Theorem c13_single_reader : forall i j, tpc (thrs s i) = S2 -> tpc (thrs s j) = S2 -> i = j.
Proof.
  intros i j Hi Hj. pose proof (invA_reach _ _ R) as I.
  assert (holder s = Some i) by (apply (A_hold s I); rewrite Hi; reflexivity).
  assert (holder s = Some j) by (apply (A_hold s I); rewrite Hj; reflexivity). congruence.
Qed.
Theorem c13_dispatch_once : NoDup (dispatched s).
Proof. exact (proj1 (B_disp s (invB_reach _ _ R))). Qed.

(* 2. every reply is delivered to the request with that number and to no other: the callback registered under a number
      belongs to the thread whose request has that number; a result cell is set exactly by the dispatch of its own reply;
      a waiter returns only when the reply to its very request has been dispatched *)
Theorem c13_callback_owner : forall q t, pending s q = Some t -> myseq (thrs s t) = Some q.
Proof. intros q. exact (proj2 (B_pend s (invB_reach _ _ R) q)). Qed.
(* a result cell is ready exactly when its reply has been dispatched and was not late: a reply dispatched after the request's own
   expiry is dropped (AsyncResult.__call__), and [late] is only ever set after that expiry *)
Theorem c13_ready_iff_dispatched : forall q, ready s q = true <-> (In q (dispatched s) /\ late s q = false).
Proof. intros q. pose proof (invB_reach _ _ R) as I. rewrite (B_ready s I q). rewrite (proj2 (B_disp s I) q). tauto. Qed.
Theorem c13_late_only_after_expiry : forall q, late s q = true -> In q (dispatched s) /\ expd s q = true.
Proof. intros q H. pose proof (invB_reach _ _ R) as I. destruct (B_late s I q H) as [A B]. split; [now apply (proj2 (B_disp s I) q)|exact B]. Qed.
(* a wait gives up only after its own expiry, with its cell not ready *)
Theorem c13_gives_up_only_after_expiry : forall i, tpc (thrs s i) = TimedOut ->
  exists q, myseq (thrs s i) = Some q /\ expd s q = true /\ ready s q = false.
Proof. exact (invD_reach _ _ R). Qed.
Theorem c13_return_means_own_reply : forall i, tpc (thrs s i) = Returned ->
  exists q, myseq (thrs s i) = Some q /\ ready s q = true /\ In q (dispatched s).
Proof.
  intros i Hi. destruct (invC_reach _ _ R i Hi) as (q & Hm & Hr). exists q. repeat split; auto.
  now apply c13_ready_iff_dispatched.
Qed.

(* 3. sequence numbers are never reused *)
Theorem c13_seq_unique : forall i j q, myseq (thrs s i) = Some q -> myseq (thrs s j) = Some q -> i = j.
Proof. exact (proj2 (B_seq s (invB_reach _ _ R))). Qed.

(* 4. no lost wake-up: whoever sleeps on the condition has a thread that holds the receive lock or has just released it
      and has not notified yet; and no deadlock: with a reply in the stream and anybody in the serving loop,
      some thread can take a step that is not a timeout *)
Theorem c13_no_lost_wakeup : forall i, tpc (thrs s i) = Asleep -> exists h, will_notify (tpc (thrs s h)) = true.
Proof. exact (A_wake s (invA_reach _ _ R)). Qed.
Theorem c13_no_deadlock : inbox s <> [] -> (exists i, in_loop (tpc (thrs s i)) = true) -> exists j s', step LStep j s = Some s'.
Proof. apply progress; [exact (invA_reach _ _ R)|exact (invB_reach _ _ R)]. Qed.
End C13.
Print Assumptions c13_single_reader.
Print Assumptions c13_dispatch_once.
Print Assumptions c13_callback_owner.
Print Assumptions c13_ready_iff_dispatched.
Print Assumptions c13_late_only_after_expiry.
Print Assumptions c13_gives_up_only_after_expiry.
Print Assumptions c13_return_means_own_reply.
Print Assumptions c13_seq_unique.
Print Assumptions c13_no_lost_wakeup.
Print Assumptions c13_no_deadlock.

(* 5. no state is a trap ("never ... strand a message", for every reachable state rather than for sampled schedules; proofs/ServeF.v).
      Wherever the execution has got to - whoever holds the receive lock, wherever the reply to a thread's request is (not sent yet,
      in the stream behind other frames, in another thread's hand, already dispatched, dropped as late) - there is a continuation made
      of thread steps, timeouts of blocked threads and the peer's answer ONLY ([quiet]: the clock passes no further expiry) after
      which that thread has left wait(): it has Returned - necessarily with the reply to its own request, c13_return_means_own_reply -
      or, only if its own expiry had ALREADY passed in s, it has given up. In particular a request whose expiry has not passed can
      always still complete. This is possibility (the theorem exhibits a schedule: a lexicographic measure on where the reply is,
      the length of the stream and the lock holder's position decreases); a guarantee under every scheduler is false for waits
      without a deadline: c13_completion_refuted_without_deadline below. *)
Theorem c13_no_state_is_a_trap : forall servers s w q, reach (init servers) s ->
  myseq (thrs s w) = Some q -> in_loop (tpc (thrs s w)) = true ->
  exists evs s', ServeF.runl s evs = Some s' /\ (forall e, In e evs -> quiet (fst e))
    /\ (tpc (thrs s' w) = Returned \/ (tpc (thrs s' w) = TimedOut /\ expd s q = true)).
Proof.
  intros servers s w q R. apply no_trap; [exact (invA_reach _ _ R)|exact (invB_reach _ _ R)|exact (invD_reach _ _ R)].
Qed.
Print Assumptions c13_no_state_is_a_trap.
Theorem c13_unexpired_request_can_still_complete : forall servers s w q, reach (init servers) s ->
  myseq (thrs s w) = Some q -> in_loop (tpc (thrs s w)) = true -> expd s q = false ->
  exists evs s', ServeF.runl s evs = Some s' /\ tpc (thrs s' w) = Returned /\ ready s' q = true.
Proof.
  intros servers s w q R Hm Hl He.
  destruct (c13_no_state_is_a_trap servers s w q R Hm Hl) as (evs & s' & Hr & Hq & [Hf|[_ X]]); [|congruence].
  exists evs, s'. split; [exact Hr|]. split; [exact Hf|].
  assert (IC : InvC s') by (apply (invC_reach servers); exact (ServeF.runl_reach _ evs s s' R Hr)).
  destruct (IC w Hf) as (q' & Hm' & Hr').
  rewrite (quiet_run_myseq evs s s' w Hq Hr), Hm in Hm'. inversion Hm'; subst q'. exact Hr'.
Qed.
Print Assumptions c13_unexpired_request_can_still_complete.

(* 7. Messages nobody is waiting for - the peer's own requests, replies whose requester is not looking.
      (a) Dispatching a message changes that message's own cell, the dispatcher's own program counter and the dispatch log; every other
      result cell, callback, every other thread, the stream and the receive lock are untouched - however long the handler runs (the
      dispatcher simply stays at S5 meanwhile: the lock was released and the sleepers notified before). *)
Theorem c13_inbound_dispatch_frame : forall servers s i s' q, reach (init servers) s ->
  tpc (thrs s i) = S5 -> hand (thrs s i) = Some q -> step LStep i s = Some s' ->
  (forall q', q' <> q -> ready s' q' = ready s q' /\ pending s' q' = pending s q' /\ ph s' q' = ph s q' /\ late s' q' = late s q')
  /\ (forall j, j <> i -> thrs s' j = thrs s j) /\ inbox s' = inbox s /\ holder s' = holder s /\ counter s' = counter s
  /\ dispatched s' = dispatched s ++ [q].
Proof. intros servers s i s' q _. apply dispatch_frame. Qed.
Print Assumptions c13_inbound_dispatch_frame.
(*    (b) No continuation ever needs a step of a thread that is outside serve() and not looking (`absent`: any set of such threads that
      does not contain the waiter - the phantom issuers of the peer's requests, clients that issued asynchronously and went away): from every
      reachable state every waiting thread can still leave wait() by its own steps, steps of threads that are inside serve() with the lock or
      a frame in hand, and the peer's answers; the absent threads are never scheduled and are left exactly as they were. *)
Theorem c13_inbound_absent_threads_never_needed : forall servers s w q (absent : nat -> bool), reach (init servers) s ->
  myseq (thrs s w) = Some q -> in_loop (tpc (thrs s w)) = true ->
  absent w = false -> (forall j, absent j = true -> outside (tpc (thrs s j)) = true) ->
  exists evs s', ServeF.runl s evs = Some s' /\ (forall e, In e evs -> quiet (fst e))
    /\ (forall e, In e evs -> (exists q0, fst e = LAnswer q0) \/ absent (snd e) = false)
    /\ (forall j, absent j = true -> thrs s' j = thrs s j)
    /\ (tpc (thrs s' w) = Returned \/ (tpc (thrs s' w) = TimedOut /\ expd s q = true)).
Proof.
  intros servers s w q absent R. apply no_trap_without; [exact (invA_reach _ _ R)|exact (invB_reach _ _ R)|exact (invD_reach _ _ R)].
Qed.
Print Assumptions c13_inbound_absent_threads_never_needed.
(* non-vacuity: a peer request (phantom issuer 7, number 0) sits in the stream IN FRONT of client 0's reply (number 1); the background thread 1
   reads it, releases, notifies and is still busy with its handler (S5) when client 0 takes the free lock, reads its own reply and returns;
   thread 7 never moves *)
Example c13_inbound_request_in_front_of_a_reply :
  match ServeF.runl (init (fun i => Nat.eqb i 1))
    [(LIssue, 7); (LIssue, 0); (LIssue, 1); (LAnswer 0, 0); (LAnswer 1, 0);
     (LStep, 1); (LStep, 1); (LStep, 1); (LStep, 1); (LStep, 1);     (* B: loop test, lock, reads the peer's request, releases, notifies: now in the handler *)
     (LStep, 0); (LStep, 0); (LStep, 0); (LStep, 0); (LStep, 0); (LStep, 0); (LStep, 0)] with   (* W: loop test, lock, reads its reply, releases, notifies, dispatches, returns *)
  | Some s => tpc (thrs s 1) = S5 /\ hand (thrs s 1) = Some 0 /\ tpc (thrs s 0) = Returned /\ ready s 1 = true /\ tpc (thrs s 7) = LoopTest /\ dispatched s = [1]
  | None => False
  end.
Proof. cbv. repeat split. Qed.

Theorem c13_program_is_current : Gen_serve.serve_prog = Serve.serve_prog /\ Gen_serve.call_sets_obj_before_ready = true
  /\ Gen_serve.callback_is_popped = true /\ Gen_serve.register_before_send = true /\ Gen_serve.seq_is_atomic_counter = true.
Proof. split; [exact tie_serve_prog|]. pose proof tie_serve_facts. tauto. Qed.
Print Assumptions c13_program_is_current.

(* non-vacuity: two clients and a background server; the peer answers in reverse order; both clients return *)
Fixpoint runl (s : st) (evs : list (label * nat)) : option st :=
  match evs with [] => Some s | (l, i) :: r => match step l i s with Some s' => runl s' r | None => None end end.
Example c13_two_clients_reverse_answers :
  match runl (init (fun i => Nat.eqb i 2))
    [(LIssue, 0); (LIssue, 1); (LIssue, 2); (LAnswer 1, 0); (LAnswer 0, 0);
     (LStep, 2); (LStep, 2); (LStep, 0); (LStep, 0);            (* server takes the lock; client 0 goes to sleep *)
     (LStep, 2); (LStep, 2); (LStep, 2); (LStep, 2);            (* server reads reply 1, releases, notifies (0 wakes), dispatches *)
     (LStep, 1); (LStep, 0); (LStep, 0); (LStep, 0); (LStep, 0); (LStep, 0); (LStep, 0); (LStep, 0)] with
  | Some s => tpc (thrs s 1) = Returned /\ tpc (thrs s 0) = Returned /\ dispatched s = [1; 0]
  | None => False
  end.
Proof. vm_compute. repeat split. Qed.

(* "every request completes" is FALSE for a waiter without a deadline (finding F5 seen from C13; known): the schedule of
   c14_prompt_refuted, continued until the background thread has gone back to sleep, ends in a state where the request's reply
   has been received and processed (ready), yet no thread can take a program step and no answer is pending. Only a timeout of
   the waiter's poll - which a wait without deadline does not have - or new traffic gets anybody moving again. *)
Definition stall_forever_schedule : list (label * nat) :=
  [(LIssue, 0); (LIssue, 1); (LAnswer 0, 0);
   (LStep, 1); (LStep, 1); (LStep, 1); (LStep, 1);     (* B: loop test, takes the lock, reads W's reply, releases the lock *)
   (LStep, 0); (LStep, 0);                              (* W: not ready yet -> serve -> takes the free lock: poll on an empty stream *)
   (LStep, 1); (LStep, 1);                              (* B: notify_all, dispatches W's reply: W's result is ready *)
   (LStep, 1); (LStep, 1)].                             (* B: loop test, lock is taken by W: goes to sleep on the condition *)
Theorem c13_completion_refuted_without_deadline : exists s, reach (init (fun i => Nat.eqb i 1)) s
  /\ myseq (thrs s 0) = Some 0 /\ ready s 0 = true /\ dispatched s = [0] /\ tpc (thrs s 0) <> Returned
  /\ (forall i, step LStep i s = None) /\ (forall q i, step (LAnswer q) i s = None)
  /\ (forall i s', step LTimeout i s = Some s' -> i = 0 \/ i = 1).
Proof.
  exists (run_end (init (fun i => Nat.eqb i 1)) stall_forever_schedule).
  split; [apply (ServeF.runl_reach _ stall_forever_schedule _ _ (r0 _)), runl_end; reflexivity|].
  repeat split.
  - lazy. discriminate.
  - intros [|[|i]]; reflexivity.
  - intros [|q] i; reflexivity.
  - intros [|[|i]] s' H; [now left|now right|lazy in H; discriminate].
Qed.
Print Assumptions c13_completion_refuted_without_deadline.
