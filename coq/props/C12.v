(* C12 — Concurrent senders never interleave, lose or strand a message.
   All statements hold in every state reachable from any initial assignment of message counts to any number of
   threads under any scheduler (one step = one source line of _send that touches shared state).  A re-entrant send
   is a send by a fresh thread id running while its parent is parked at the write (see model/SendQ.v). *)
From V Require Import lib.Base model.SendQ proofs.SendQP proofs.SendQTerm proofs.SendQTie gen.Gen_sendq.

Section C12.
Variable totals : nat -> nat.
Variable s : st.
Hypothesis R : reach (init totals) s.

(* 1. writes never overlap: a thread is between acquire and release iff it is the lock holder, so there is at most one *)
Theorem c12_mutex : forall i j, in_cs (tpc (thrs s i)) = true -> in_cs (tpc (thrs s j)) = true -> i = j.
Proof.
  intros i j Hi Hj. pose proof (I_mutex s (inv_reachable _ _ R)) as M.
  apply M in Hi. apply M in Hj. congruence.
Qed.

(* 2+3. nothing lost, nothing duplicated, per-thread order kept — at every moment: for each thread, the messages it has
        issued so far are, in issue order, exactly those on the wire, then the one being written, then those queued *)
Theorem c12_exactly_once_in_order : forall i, proj i (wire s ++ held s ++ queue s) = seq 0 (next (thrs s i)).
Proof. exact (I_seq s (inv_reachable _ _ R)). Qed.

(* 4. no stranding: when every sender has returned the queue is empty, the lock is free, and every thread's messages
      are on the wire exactly once, in order *)
Theorem c12_quiescent : all_returned s ->
  queue s = [] /\ lock s = None /\ forall i, proj i (wire s) = seq 0 (totals i).
Proof.
  intros D. pose proof (inv_reachable _ _ R) as I.
  destruct (quiescent_empty s I D) as [Q L]. repeat split; auto. intros i.
  now rewrite (quiescent_wire s I D i), (total_const totals s R).
Qed.

(* 5. no sender can block or get stuck: there is no blocking acquire and no failing pop *)
Theorem c12_no_blocking : forall i, tpc (thrs s i) <> Done -> exists s', step i s = Some s'.
Proof. intros i. exact (no_blocking s i (inv_reachable _ _ R)). Qed.

(* hand-off invariant behind 4: a non-empty queue always has a thread that will test it again *)
Theorem c12_will_retest : queue s <> [] ->
  exists i, let p := tpc (thrs s i) in p = P0 \/ p = P1 \/ in_cs p = true \/ (p = P2 /\ lock s = None).
Proof. exact (I_retest s (inv_reachable _ _ R)). Qed.
End C12.
Print Assumptions c12_mutex.
Print Assumptions c12_exactly_once_in_order.
Print Assumptions c12_quiescent.
Print Assumptions c12_no_blocking.
Print Assumptions c12_will_retest.

(* 6. termination under ANY scheduler, fair or unfair: with n sending threads, a potential (weighted count of messages not yet
      popped and not yet appended, plus a per-thread rank that depends on whether the queue is empty) strictly decreases on
      every step of every thread; so every execution from the initial state has at most Phi(initial) steps — no livelock *)
Theorem c12_terminates : forall n totals k s',
  (forall i, n <= i -> totals i = 0) -> run_of (init totals) k s' -> k <= Phi n (init totals).
Proof.
  intros n totals k s' Hz Hr.
  assert (Hb : idle_beyond n (init totals)).
  { intros i Hi. cbn. rewrite (Hz i Hi). reflexivity. }
  pose proof (bounded_executions n k _ _ (inv_init totals) Hb Hr). lia.
Qed.
Print Assumptions c12_terminates.

(* tie: the source's _send is the program these theorems are about; the lock is a plain threading.Lock and the queue a fresh list,
   each assigned exactly once, unconditionally, in __init__; no other method of Connection and no other module touches the queue,
   the lock or the channel's send; anywhere in the package a connection's `_channel` is only tested, closed, polled or read -
   never sent to, aliased or handed on (every outgoing frame goes through _send) *)
Theorem c12_program_is_current : Gen_sendq.send_prog = SendQ.prog /\ Gen_sendq.sendlock_is_plain_lock = true
  /\ Gen_sendq.send_queue_is_fresh_list = true /\ Gen_sendq.send_state_private_to_send = true /\ Gen_sendq.send_state_untouched_elsewhere = true
  /\ Gen_sendq.channel_written_only_by_send = true.
Proof. split; [exact tie_prog|exact tie_lock]. Qed.
Print Assumptions c12_program_is_current.

(* non-vacuity: two threads, a schedule in which thread 1's acquire fails while thread 0 holds the lock and
   thread 0 then sends both messages; the final state is reachable and quiescent *)
Fixpoint run (s : st) (sched : list nat) : option st :=
  match sched with [] => Some s | i :: r => match step i s with Some s' => run s' r | None => None end end.
Example c12_handoff_schedule :
  match run (init (fun i => if Nat.ltb i 2 then 1 else 0)) [0; 0; 0; 1; 1; 1; 0; 0; 0; 0; 0; 0; 0; 0; 0; 0; 0] with
  | Some s => wire s = [(0, 0); (1, 0)] /\ queue s = [] /\ lock s = None /\ tpc (thrs s 0) = Done /\ tpc (thrs s 1) = Done
  | None => False
  end.
Proof. vm_compute. repeat split. Qed.

(* 7. SCOPE of 1-6: in the transition system a write (P5) always completes. A write that fails WITHOUT ending the stream (channel.send
      raises for a frame of 4 GiB or more, or when compression runs out of memory) takes the holder out of _send through the
      `finally` - lock released, no re-test of the queue. The refutation: thread 1 appends its message and returns because the lock is
      taken; thread 0's write fails; every sender has returned, the lock is free, and thread 1's message is still queued
      (known finding F52; found by the harness's failed-write plans). *)
Definition fail_write (i : nat) (s : st) : option st :=
  match tpc (thrs s i), cur (thrs s i) with
  | P5, Some _ => Some {| thrs := upd (thrs s) i {| tpc := Done; next := next (thrs s i); total := total (thrs s i); cur := None |};
                          queue := queue s; lock := None; wire := wire s |}
  | _, _ => None
  end.
Fixpoint run_steps (s : st) (l : list nat) : option st :=
  match l with [] => Some s | i :: r => match step i s with Some s' => run_steps s' r | None => None end end.
Theorem c12_quiescent_refuted_when_a_write_fails :
  exists s1 s2, run_steps (init (fun i => if Nat.ltb i 2 then 1 else 0)) [0; 0; 0; 0; 0; 1; 1; 1] = Some s1
    /\ fail_write 0 s1 = Some s2
    /\ (forall i, tpc (thrs s2 i) = Done) /\ lock s2 = None /\ queue s2 = [(1, 0)] /\ wire s2 = [].
Proof.
  eexists. eexists. split; [vm_compute; reflexivity|]. split; [vm_compute; reflexivity|].
  repeat split. intros [|[|i]]; reflexivity.
Qed.
Print Assumptions c12_quiescent_refuted_when_a_write_fails.
