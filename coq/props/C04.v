(* C04 — The value serializer is lossless and exact about what it accepts. *)
From V Require Import lib.Base lib.Utf8 model.Ladder model.Brine proofs.BrineP proofs.BrineTie gen.Gen_brine.
Open Scope N_scope.

(* 1. every well-formed value the predicate accepts is encoded, and decoding returns exactly it,
      whatever follows it in the stream and at any nesting depth *)
Theorem c04_roundtrip : forall P v, wf P v = true -> dumpable v = true -> text_ok P v = true ->
  exists bs, dump P v = Ok bs /\ load P bs = Ok v /\
    forall rest f, (depth v <= f)%nat -> load_f P f (bs ++ rest) = Ok (v, rest).
Proof.
  intros P v Hw Hd Ht. destruct (load_dump P v Hw Hd Ht) as (bs & E & L). exists bs. repeat split; auto.
  intros rest f Hf. apply (rt_at_dump P f v bs (roundtrip_rt P v Hw Hd Ht f Hf) E).
Qed.
Print Assumptions c04_roundtrip.

(* 2. predicate and encoder agree: accepted => encodes; rejected => TypeError *)
Theorem c04_decision_exact : forall P v, wf P v = true -> text_ok P v = true ->
  (dumpable v = true -> exists bs, dump P v = Ok bs) /\ (dumpable v = false -> dump P v = Raise TypeError).
Proof. exact decision_exact. Qed.
Print Assumptions c04_decision_exact.

(* 2'. on a tree whose text codec is strict the agreement fails for lone surrogates (finding F1);
       on a tree with surrogatepass [text_ok] is vacuous and 2 covers every well-formed value *)
Theorem c04_decision_exact_refuted_when_strict : forall P, sp P = false ->
  exists v, wf P v = true /\ dumpable v = true /\ dump P v = Raise UnicodeError.
Proof. exact decision_exact_refuted. Qed.
Print Assumptions c04_decision_exact_refuted_when_strict.

Theorem c04_text_ok_when_surrogatepass : forall P v, sp P = true -> text_ok P v = true.
Proof. intros P v H. unfold text_ok. now rewrite H. Qed.
Print Assumptions c04_text_ok_when_surrogatepass.

(* 3. decoding arbitrary bytes yields, if anything, only immutable plain values *)
Theorem c04_decode_safe : forall P bs v, load P bs = Ok v -> dumpable v = true.
Proof.
  intros P bs v. unfold load. destruct (load_f P (S (length bs)) bs) as [[v' r]| | |] eqn:E; cbn [bind]; try discriminate.
  intros [= <-]. exact (proj1 (load_f_plain P _ _ _ _ E)).
Qed.
Print Assumptions c04_decode_safe.

(* 3'. decoding arbitrary bytes always ends with a definite outcome — a value or an exception; the model's fuel (which only bounds
       nesting depth, never above the number of bytes) is never exhausted *)
Theorem c04_decode_total : forall P bs, load P bs <> OutOfFuel.
Proof. exact load_total. Qed.
Print Assumptions c04_decode_total.

(* 4. tie to the generated facts of the current source tree: the ladders, the immediates, the codec mode, and how many tags and
      types there are (which ones: proofs/BrineTie.v) *)
Theorem c04_tie :
  Gen_brine.bytes_ladder = Brine.str_ladder /\ Gen_brine.tuple_ladder = Brine.tup_ladder /\ Gen_brine.int_ladder = Brine.int_ladder
  /\ Gen_brine.imm_lo = Brine.IMM_LO /\ Gen_brine.imm_hi = Brine.IMM_HI /\ Gen_brine.imm_off = Brine.IMM_OFF
  /\ Gen_brine.str_encode_surrogatepass = Gen_brine.str_decode_surrogatepass
  /\ length Gen_brine.all_tags = 26%nat /\ length Gen_brine.dump_types = 12%nat /\ length Gen_brine.load_tags = 26%nat.
Proof.
  pose proof tie_ladders as (A & B & C). pose proof tie_imm as (D & E & F).
  refine (conj A (conj B (conj C (conj D (conj E (conj F (conj tie_utf8_mode (conj _ (conj _ _))))))))).
  - now rewrite tie_tags.
  - now rewrite tie_dump_types.
  - now rewrite tie_load_tags.
Qed.
Print Assumptions c04_tie.

(* non-vacuity: a nested value with a 256-element tuple, a long integer, NaN with payload, -0.0, text, slice, frozenset *)
Definition sample : pyval :=
  PTuple [PTuple (repeat (PInt 7) 256); PInt (10 ^ 255); PFloat [x7f; xf8; x00; x00; x00; x00; x01; x23];
          PFloat [x80; x00; x00; x00; x00; x00; x00; x00]; PStr [0x20ac; 0x10ffff; 0x41];
          PSlice PNone (PInt (-49)) (PBytes [x00; xff]); PFset [PBool true; PEllipsis; PNotImpl]; PComplex (repeat x00 16)].
Example c04_sample_meets_hypotheses :
  wf (Pgen 4300) sample = true /\ dumpable sample = true /\ text_ok (Pgen 4300) sample = true /\
  match dump (Pgen 4300) sample with Ok bs => load (Pgen 4300) bs | _ => Raise OtherError end = Ok sample.
Proof.
  assert (W : wf (Pgen 4300) sample = true).
  { apply wf_tuple; [reflexivity|]. constructor; [reflexivity|]. constructor.
    - (* counting the decimal digits of 10^255 takes 848 doublings of a 256-digit numeral: bound them by the binary size *)
      apply (wf_int_size _ _ 848); [now apply N.leb_le|reflexivity..].
    - repeat constructor. }
  destruct (load_dump _ _ W eq_refl eq_refl) as (bs & -> & L). exact (conj W (conj eq_refl (conj eq_refl L))).
Qed.
