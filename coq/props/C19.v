(* C19 — Bytes on the wire are those of the published 5.x protocol. *)
From V Require Import lib.Base lib.Decimal model.Ladder model.Brine model.Channel model.Published proofs.BrineP proofs.PublishedP
  proofs.AdmitsP proofs.ChannelP proofs.WireP model.PubCodec proofs.PubCodecP gen.Gen_brine gen.Gen_consts gen.Gen_channel gen.Gen_protocol.
Open Scope N_scope.

(* 1. what the code says now = what the published format says: tags, immediates, ladders, struct formats,
      frame layout/threshold/comparison, message kinds, labels, handler numbers and the handler table, message tuple layout *)
Theorem c19_tables :
  (Gen_brine.all_tags = pub_tags /\ Gen_brine.imm_lo = pub_imm_lo /\ Gen_brine.imm_hi = pub_imm_hi /\ Gen_brine.imm_off = pub_imm_off
   /\ Gen_brine.bytes_ladder = pub_str_ladder /\ Gen_brine.tuple_ladder = pub_tup_ladder /\ Gen_brine.int_ladder = pub_int_ladder
   /\ Gen_brine.struct_formats = pub_structs)
  /\ (Gen_channel.COMPRESSION_THRESHOLD = pub_threshold /\ Gen_channel.COMPRESSION_LEVEL = pub_level
      /\ Gen_channel.FRAME_HEADER_format = pub_header_format /\ Gen_channel.FRAME_HEADER_size = pub_header_size
      /\ Gen_channel.FLUSHER = pub_flusher /\ Gen_channel.compress_when_len = pub_compress_when)
  /\ (forall k v, In (k, v) pub_consts -> In (k, v) Gen_consts.all_consts)
  /\ Gen_protocol.handler_table = pub_handlers
  /\ (Gen_protocol.send_packs_msg_seq_args = true /\ Gen_protocol.dispatch_unpacks_msg_seq_args = true
      /\ Gen_protocol.request_args_are_handler_boxed = true /\ Gen_protocol.request_unpacks_handler_args = true).
Proof. split; [exact tables_eq|split; [exact frame_params_eq|split; [exact consts_incl|split; [exact handlers_eq|exact message_layout]]]]. Qed.
Print Assumptions c19_tables.

(* 2. the encoder the C04 theorems are about uses exactly the published ladders *)
Theorem c19_encoder_is_published :
  Brine.str_ladder = pub_str_ladder /\ Brine.tup_ladder = pub_tup_ladder /\ Brine.int_ladder = pub_int_ladder.
Proof. exact model_ladders_published. Qed.
Print Assumptions c19_encoder_is_published.
(* 2b. and, value by value: for EVERY value the encoder emits exactly what the published encoding - written out directly in
       model/PubCodec.v from the format description: explicit tag bytes, 0/1-4/one-byte/four-byte length classes, 0x50+i
       immediates, ASCII decimal integers, UTF-8 text, "!d"/"!dd" floats - prescribes (same bytes, same refusals) *)
Theorem c19_emits_the_published_encoding : forall P v, dump P v = pub_dump (sp P) (maxdigits P) v.
Proof. exact dump_is_published. Qed.
Print Assumptions c19_emits_the_published_encoding.
(* 2c. ... with the published TEXT codec, UTF-8 proper (strict), on every value whose text contains no lone surrogate - whatever codec
       mode the tree is in. Lone surrogates are exactly where a surrogatepass tree (the F1 repair) leaves the published format: the
       witness is a one-character string it emits as 08 0c ed a0 80 and the strict codec refuses (known finding F67) *)
Theorem c19_emits_the_strict_published_encoding : forall P v, nosurr v = true -> dump P v = pub_dump false (maxdigits P) v.
Proof. exact dump_is_strictly_published. Qed.
Theorem c19_surrogate_extension_refuted : exists P v, sp P = true /\ (exists bs, dump P v = Ok bs) /\ pub_dump false (maxdigits P) v = Raise UnicodeError.
Proof. exists {| sp := true; maxdigits := 4300 |}, (PStr [0xD800%N]). destruct surrogate_witness as [A B]. split; [reflexivity|]. split; [eexists; exact A|exact B]. Qed.
Print Assumptions c19_emits_the_strict_published_encoding.
Print Assumptions c19_surrogate_extension_refuted.
(* 2d. frames: what Channel.send puts on the wire for a payload is the published frame - 4-byte big-endian body length, flag byte 1
       exactly when the sender compresses and the payload is strictly longer than 3000 bytes, the body, a newline - for any zlib *)
Theorem c19_frame_is_published : forall zlib P cmp d, threshold P = 3000 -> flusher P = [b_of 10] -> frame zlib P cmp d = pub_frame zlib cmp d.
Proof. exact frame_is_published. Qed.
Print Assumptions c19_frame_is_published.

(* 3. shortest form: for every length below 2^32 each ladder emits a header no longer than any header the format admits
      for that length, and integers use the one-byte immediate whenever the format has one *)
Theorem c19_shortest :
  shortest_for pub_str_ladder /\ shortest_for pub_tup_ladder /\ shortest_for pub_int_ladder
  /\ (forall P z, is_imm z = true -> exists b, dump_int P z = Ok [b]).
Proof. destruct shortest_published as (S & T & I). exact (conj S (conj T (conj I imm_used))). Qed.
Print Assumptions c19_shortest.

(* 4. whatever admissible form an independent encoder picks (one-byte or four-byte counts where the canonical
      encoder would use a shorter one), the decoder accepts it with the same meaning *)
Theorem c19_accepts_alternative_forms :
  (forall P rec (b rest : list byte), nlen b < 256 -> load_body P rec (x0e :: b_of (nlen b) :: b ++ rest) = Ok (PBytes b, rest))
  /\ (forall P rec (b rest : list byte), nlen b < 4294967296 -> load_body P rec (x0f :: be4 (nlen b) ++ b ++ rest) = Ok (PBytes b, rest))
  /\ (forall P rec z t (rest : list byte), render (maxdigits P) z = Ok t -> nlen t < 4294967296 ->
        load_body P rec (x17 :: be4 (nlen t) ++ t ++ rest) = Ok (PInt z, rest))
  /\ (forall P f l, nlen l < 256 -> nlen l <> 0 -> Forall (rt_at P f) l ->
        exists body, dump_items P l = Ok body /\ forall rest, load_f P (S f) (x14 :: b_of (nlen l) :: body ++ rest) = Ok (PTuple l, rest))
  /\ (forall P f l, nlen l < 4294967296 -> Forall (rt_at P f) l ->
        exists body, dump_items P l = Ok body /\ forall rest, load_f P (S f) (x15 :: be4 (nlen l) ++ body ++ rest) = Ok (PTuple l, rest)).
Proof.
  repeat split.
  - intros P rec b rest H. exact (proj2 (reads_counted P rec KStr _ _ b _ (H_L1 KStr _ H) (bytes_of_app b)) rest).
  - intros P rec b rest H. exact (proj2 (reads_counted P rec KStr _ _ b _ (H_L4 KStr _ H) (bytes_of_app b)) rest).
  - intros P rec z t rest Hr H. exact (proj2 (reads_counted P rec KInt _ _ t _ (H_L4 KInt _ H) (int_of_app P z t Hr)) rest).
  - intros P f l H _ HF. destruct (rt_items P f l HF) as (bss & Eb & Hb). exists (concat bss). split; [exact Eb|]. intros rest.
    exact (proj2 (reads_counted P _ KTup _ _ _ _ (H_L1 KTup _ H) (tup_of_app _ l bss Hb)) rest).
  - intros P f l H HF. destruct (rt_items P f l HF) as (bss & Eb & Hb). exists (concat bss). split; [exact Eb|]. intros rest.
    exact (proj2 (reads_counted P _ KTup _ _ _ _ (H_L4 KTup _ H) (tup_of_app _ l bss Hb)) rest).
Qed.
Print Assumptions c19_accepts_alternative_forms.

(* 4b. the same at EVERY nesting level. [admits P v bs]: bs is any encoding of v the format admits - the shortest-form one, or
      any count in its one-byte or four-byte form, any integer as decimal text under either count form, a text value over any
      admitted encoding of its UTF-8 bytes, tuples / frozensets / slices under any admissible header over items that are again
      in any admitted form. Every one of them is read back as v by brine.load (the fuel it starts with always suffices), and
      in mid-stream leaves what follows untouched. *)
Theorem c19_accepts_any_admitted_encoding : forall P v bs, admits P v bs ->
  load P bs = Ok v /\ forall rest, load_f P (S (depth v)) (bs ++ rest) = Ok (v, rest).
Proof. intros P v bs H. split; [exact (admits_load P v bs H)|exact (admits_accepted P v bs H)]. Qed.
Print Assumptions c19_accepts_any_admitted_encoding.

(* 5. frames: whatever conforming frame an independent sender emits - flag byte zero with the payload as body, or any non-zero
      flag byte with a body the receiver's zlib inflates to the payload, at ANY size (the threshold binds only what rpyc emits) -
      a stream of them read through any benign fragmentation is delivered payload by payload *)
Section C19_frames.
Variable decompress : list byte -> result (list byte).
Variable P : cparams.
Hypothesis Hhdr : hdr_size P = 5.
Hypothesis Hchunk : hdr_size P + nlen (flusher P) <= chunk P.
Theorem c19_accepts_any_conforming_frames : forall tol fs payloads evs fuel,
  Forall2 (fun f p => conforming decompress (fst f) (snd f) p) fs payloads -> benign_r tol evs -> (length fs < fuel)%nat ->
  recv_all decompress P fuel tol evs (wire_of P fs) [] = (payloads, false).
Proof. intros tol fs payloads evs fuel HF Hb Hf. exact (recv_all_conforming decompress P Hhdr Hchunk tol fs payloads evs [] fuel HF Hb Hf). Qed.

(* 6. the layers composed: values, encoded by the published table, framed, fragmented arbitrarily, arrive as the same values *)
Variable compress : list byte -> list byte.
Hypothesis zlib_roundtrip : forall x, decompress (compress x) = Ok x.
Theorem c19_values_cross_the_wire : forall BP tol cmp vs, Forall (transferable BP) vs ->
  exists pkts, dump_all BP vs = Ok pkts /\
    forall fs wevs revs fuel, frames compress P cmp pkts = Ok fs -> benign_w wevs -> benign_r tol revs -> (length vs < fuel)%nat ->
      exists wire got, send_all compress P cmp wevs pkts [] = Ok (true, wire)
                       /\ recv_all decompress P fuel tol revs wire [] = (got, false) /\ load_all BP got = Ok vs.
Proof. intros BP tol cmp vs. exact (values_end_to_end decompress P Hhdr Hchunk compress zlib_roundtrip BP tol cmp vs). Qed.
End C19_frames.
Print Assumptions c19_accepts_any_conforming_frames.
Print Assumptions c19_values_cross_the_wire.
(* non-vacuity: a 5-byte string under a one-byte count, which is also what the encoder emits, and under a four-byte count decodes
   to the same value *)
Example c19_forms_sample :
  let P := {| sp := true; maxdigits := 4300 |} in
  let b := [x61; x62; x63; x64; x65] in
  load P (x0e :: x05 :: b) = Ok (PBytes b) /\ load P (x0f :: x00 :: x00 :: x00 :: x05 :: b) = Ok (PBytes b)
  /\ dump P (PBytes b) = Ok (x0e :: x05 :: b).
Proof. vm_compute. repeat split. Qed.

(* non-vacuity for 4b: ((7, "A"),) with the outer tuple under a four-byte count, the inner one under a one-byte count, 7 as
   decimal text under a four-byte count and the text over a four-byte-count byte string: admitted, 20 bytes against the 6 of the
   shortest form, and decoded to the same value *)
Example c19_nested_forms_sample :
  let P := {| sp := true; maxdigits := 4300 |} in
  let v := PTuple [PTuple [PInt 7; PStr [65]]] in
  let bs := (x15 :: be4 1) ++ concat [(x14 :: [b_of 2]) ++ concat [x17 :: be4 1 ++ [x37]; x08 :: (x0f :: be4 1 ++ [x41])]] in
  admits P v bs /\ load P bs = Ok v /\ length bs = 20%nat /\ (exists c, dump P v = Ok c /\ length c = 6%nat).
Proof.
  cbv zeta. split; [|split; [vm_compute; reflexivity|split; [vm_compute; reflexivity|eexists; split; vm_compute; reflexivity]]].
  apply (A_tuple _ [PTuple [PInt 7; PStr [65]]] [_]); [apply TH_L4; vm_compute; reflexivity|].
  constructor; [|constructor].
  apply (A_tuple _ [PInt 7; PStr [65]] [_; _]); [apply TH_L1; vm_compute; reflexivity|].
  constructor; [|constructor; [|constructor]].
  - apply (A_int_L4 _ 7%Z [x37]); [vm_compute; reflexivity|vm_compute; reflexivity].
  - apply (A_str _ [65] [x41]); [vm_compute; reflexivity|]. apply (A_bytes_L4 _ [x41]). vm_compute; reflexivity.
Qed.

(* non-vacuity for 5: a plain frame and a "compressed" 3-byte frame (far below the threshold, flag byte 7) through a toy inflater,
   read one byte at a time with a timeout in between, are both delivered *)
Example c19_frames_sample :
  let P := {| threshold := 3000; chunk := 16000; hdr_size := 5; flusher := [x0a] |} in
  let inflate := fun b : list byte => Ok (b ++ b) in
  let fs := [(x00, [x61; x62]); (x07, [x63; x64; x65])] in
  Forall2 (fun f p => conforming inflate (fst f) (snd f) p) fs [[x61; x62]; [x63; x64; x65; x63; x64; x65]]
  /\ recv_all inflate P 5 true (repeat (RData 1) 8 ++ [RTimeout] ++ repeat (RData 1) 9) (wire_of P fs) []
     = ([[x61; x62]; [x63; x64; x65; x63; x64; x65]], false).
Proof. split; [repeat constructor|vm_compute; reflexivity]. Qed.
