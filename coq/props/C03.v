(* C03 — Immutable values travel by copy, everything else by reference; identity survives.
   The general theorems are in proofs/BoxP.v; here each clause is stated for the ladders of the source tree and
   derived from them in a few lines.

   Reading guide.  [transfer P bl ul idp from v w] is one object v going from party [from] (true = A) to the
   other party of world w: Connection._box with the decision ladder bl, brine.dump, the wire, brine.load,
   Connection._unbox with the ladder ul.  The ladders used below are the ones REGENERATED FROM THE SOURCE
   (gen/Gen_box.v); proofs/BoxTie.v shows by computation that they are the ladders of the proofs.
   [idp] is get_id_pack (CPython's id() is outside the model: any function whose id packs are encodable).
   [POther k] is any object whose exact type is not in brine's registry: lists, dicts, functions, classes,
   modules and every instance of a subclass of int / str / tuple / frozenset / ... (enum members, named tuples).
   [inv] is an invariant of every world reachable by well-behaved parties (theorem c03_histories).

   WHAT IS EXCLUDED, and where it is stated.
   (E1) One get_id_pack throughout: every theorem below speaks of histories in which the id packs of the objects that
        are LENT do not change (c03_id_pack_may_change_when_not_lent: packs of objects that are not lent may change
        freely).  The real get_id_pack reads the name and the class id from the object's CURRENT class, so reassigning
        o.__class__ or renaming the class of a lent object changes its pack; on the current tree the clauses "same
        proxy while alive" and "handed back = original" then FAIL: c03_one_proxy_refuted_when_id_pack_changes and
        c03_echo_refuted_after_id_pack_change exhibit the history (known finding; the harness produces it).
   (E2) Two parties, one connection.  Netrefs of another connection (three address spaces) are ordinary objects to
        the model, keyed by whatever pack they carry; that two live objects of DIFFERENT address spaces never share a
        pack is not provable (forked processes share layouts) and is a hypothesis wherever identity is claimed
        (premise "no other live object has v's id pack" of c03_echo_identity_hops).  The harness runs a real
        three-party chain with the oracle only.
   (E4) One arrival at a time.  [transfer] is atomic; the real _unbox is not when the class of the object is unknown to
        the receiver: _netref_factory waits for HANDLE_INSPECT and serves other messages meanwhile.  All theorems about
        [transfer] / [run] speak of histories in which no arrival is dispatched while another one waits for the class.
        The nested case is modelled separately ([nested_arrival]): c03_one_proxy_nested_when_rechecked is the clause
        "one proxy per object" under the generated fact factory_rechecks_cache_after_inspect, and
        c03_one_proxy_nested_refuted is the witness that without it (the tree before the proposed repair) the same
        object gets TWO live proxies.  The harness produces the history (two requests in flight carrying one object).
   (E5) Objects carried by an exception (raise ValueError([1, 2])) do not travel through _box at all: the exception
        record is C09's subject (arguments that are not plain values arrive as their repr text).  "Every other object
        reaches the peer as a reference" is claimed for request arguments and results only.
   (E3) pickle: obtain / deliver are proved only as plumbing (c03_obtain_deliver_plumbing_partial,
        c03_deliver_then_operate_partial); "equal" is pickle's own contract and is checked by the harness oracle. *)
From Coq Require Import String.
From V Require Import lib.Base lib.Utf8 model.Ladder model.Brine proofs.BrineP proofs.BrineTie
  model.Box proofs.BoxP proofs.BoxTie gen.Gen_box gen.Gen_consts gen.Gen_brine.
Open Scope Z_scope.

Definition idp_enc (P : bparams) (idp : pyval -> idpack) : Prop :=
  (forall u, wf P (pv_of_idpack (idp u)) = true) /\ (forall u, text_ok P (pv_of_idpack (idp u)) = true).
(* the code's transfer: ladders as found in the source tree *)
Definition code_transfer P idp := transfer P Gen_box.box_ladder Gen_box.unbox_ladder idp.
Lemma code_transfer_std P idp : code_transfer P idp = transfer P std_bladder std_uladder idp.
Proof. unfold code_transfer. now rewrite tie_box_ladder, tie_unbox_ladder. Qed.

(* 0. whatever _box is given, the package it puts on the wire is an immutable plain value (so C04 applies) *)
Theorem c03_package_is_plain : forall idp mk v,
  exists pkg regs, box Gen_box.box_ladder idp mk v = Ok (pkg, regs) /\ dumpable pkg = true.
Proof.
  intros. rewrite tie_box_ladder. exists (pkg_of idp mk v), (regs_of mk v). split; [apply box_spec|apply pkg_dumpable].
Qed.
Print Assumptions c03_package_is_plain.

(* 1. immutable plain values (any shape, any nesting) arrive as the same value: same constructor = same exact
      type, equal content; neither party's tables change *)
Theorem c03_values : forall P idp from v w,
  dumpable v = true -> wf P v = true -> text_ok P v = true ->
  code_transfer P idp from v w = Ok (v, w).
Proof. intros. rewrite code_transfer_std. now apply values_by_copy. Qed.
Print Assumptions c03_values.

(* 2. every other object that is not an exact tuple (dumpable v = false covers every POther, i.e. every instance
      of a subclass, and every frozenset / slice with such an object inside) arrives as THE proxy for its id pack
      ([accept]: the live cached proxy, else a fresh one), and the sender keeps the object in its table *)
Theorem c03_refs : forall P idp, idp_enc P idp -> forall from v w,
  inv P idp w -> byref (made (get w from)) v -> wf P v = true -> text_ok P v = true ->
  code_transfer P idp from v w =
    Ok (fst (accept (idp v) (get w (negb from))),
        put2 from (set_ltab (get w from) (coll_add (idp v) v (ltab (get w from))))
                  (snd (accept (idp v) (get w (negb from))))).
Proof. intros P idp [A B] **. rewrite code_transfer_std. now apply refs_by_reference. Qed.
Print Assumptions c03_refs.

(* ENCODING FACTS (no content about the code by themselves): in the model's universe an instance of a subclass of a plain
   type is a [POther] and therefore falls under c03_refs.  That the CODE treats such instances so is the generated fact
   Gen_box.dumpable_tests_exact_types (c03_tie) together with the harness, which maps real objects to [POther] by exact
   type and observes them arriving as references. *)
Theorem c03_encoding_subclass_instances_are_byref : forall mk k, N.even k = true -> byref mk (POther k).
Proof.
  intros mk k E. repeat split. unfold own_proxy, proxy_serial. rewrite <- N.negb_even, E. reflexivity.
Qed.
Print Assumptions c03_encoding_subclass_instances_are_byref.

(* ... likewise every frozenset / slice that is not built only from plain values (it holds an object somewhere) *)
Theorem c03_encoding_containers_holding_objects_are_byref : forall mk v,
  dumpable v = false -> (forall l, v <> PTuple l) -> (forall k, v <> POther k) -> byref mk v.
Proof.
  intros mk v D T O. destruct v; try discriminate; try (repeat split; assumption || reflexivity).
  - exfalso. now apply (T l).
  - exfalso. now apply (O k).
Qed.
Print Assumptions c03_encoding_containers_holding_objects_are_byref.

(* 2'. exact tuples, mixing values and references at any nesting: sending the tuple is sending its items one
       after the other and tupling what arrives *)
Theorem c03_tuple_mixed : forall P idp, idp_enc P idp -> forall from l w,
  inv P idp w -> wf P (PTuple l) = true -> text_ok P (PTuple l) = true -> held (get w from) (PTuple l) = true ->
  code_transfer P idp from (PTuple l) w = do (vs, w') <- transfer_items P idp from l w; Ok (PTuple vs, w').
Proof.
  intros P idp [A B] **. rewrite code_transfer_std, transfer_spec, transfer_items_spec; auto using held_items, text_ok_list, wf_items.
  cbn [bind]. rewrite recv_tuple, regs_of_tuple. now destruct (recv_items _ _ _ _).
Qed.
Print Assumptions c03_tuple_mixed.

(* 2''. the general statement for every value and nesting: the receiver ends with the pure specification [recv] *)
Theorem c03_transfer_spec : forall P idp, idp_enc P idp -> forall from v w,
  inv P idp w -> wf P v = true -> text_ok P v = true -> held (get w from) v = true ->
  code_transfer P idp from v w =
    Ok (fst (recv idp (made (get w from)) v (get w (negb from))),
        put2 from (set_ltab (get w from) (register idp (regs_of (made (get w from)) v) (ltab (get w from))))
                  (snd (recv idp (made (get w from)) v (get w (negb from))))).
Proof.
  intros P idp [A B] **. rewrite code_transfer_std. now apply transfer_spec.
Qed.
Print Assumptions c03_transfer_spec.

(* 3. an operation applied through a proxy is applied to the owner's object: the owner's _unbox of the request
      yields the very object stored under the proxy's key *)
Theorem c03_mutation_is_owner_mutation : forall P idp, idp_enc P idp -> forall a n k rc obj c d w,
  inv P idp w -> lookup k (cache (get w a)) = Some (n, rc) -> lookup k (ltab (get w (negb a))) = Some (obj, c) ->
  wf P (PInt d) = true ->
  mutate P Gen_box.box_ladder Gen_box.unbox_ladder idp a n d w =
    Ok (put2 a (get w a) (set_mlog (get w (negb a)) (mlog (get w (negb a)) ++ [(obj, d)]))).
Proof. intros P idp [A B] **. rewrite tie_box_ladder, tie_unbox_ladder. now apply mutation_at_owner with (k := k) (rc := rc) (c := c). Qed.
Print Assumptions c03_mutation_is_owner_mutation.

(* 4. a reference handed back to its owner is the original object itself (not a proxy), and nothing changes *)
Theorem c03_echo_identity : forall P idp, idp_enc P idp -> forall a n k rc obj c w,
  inv P idp w -> lookup k (cache (get w a)) = Some (n, rc) -> lookup k (ltab (get w (negb a))) = Some (obj, c) ->
  code_transfer P idp a (POther (proxy_name n)) w = Ok (obj, w).
Proof. intros P idp [A B] **. rewrite code_transfer_std. now apply echo_identity with (k := k) (rc := rc) (c := c). Qed.
Print Assumptions c03_echo_identity.

(* 4'. ... for any number of hops back and forth: send v, and from then on every even hop yields v itself and
       every odd hop the same proxy p.  The premise on the table is "no other live object has v's id pack". *)
Theorem c03_echo_identity_hops : forall P idp, idp_enc P idp -> forall from v w,
  inv P idp w -> byref (made (get w from)) v -> wf P v = true -> text_ok P v = true ->
  (forall o c, lookup (idp v) (ltab (get w from)) = Some (o, c) -> o = v) ->
  exists p, forall n,
    (exists w', hops P idp (2 * n + 1) from v w = Ok (POther (proxy_name p), w')) /\
    (exists w', hops P idp (2 * n + 2) from v w = Ok (v, w')).
Proof.
  intros P idp [A B] from v w I Br W X NC. destruct (echo_hops P idp A B from v w I Br W X NC) as (p & H). exists p. intros n. split.
  - destruct (H (2 * n)%nat) as (w' & E). exists w'. now rewrite Nat.add_1_r, E, Nat.even_mul.
  - destruct (H (S (2 * n))) as (w' & E). exists w'. replace (2 * n + 2)%nat with (S (S (2 * n))) by lia.
    now rewrite E, Nat.even_succ, <- Nat.negb_even, Nat.even_mul.
Qed.
Print Assumptions c03_echo_identity_hops.

(* 5. while a proxy for an object is alive, receiving the object again yields that same proxy and bumps its
      count; no new proxy is made *)
Theorem c03_one_proxy : forall P idp, idp_enc P idp -> forall from v w n rc,
  inv P idp w -> byref (made (get w from)) v -> wf P v = true -> text_ok P v = true ->
  lookup (idp v) (cache (get w (negb from))) = Some (n, rc) ->
  exists w', code_transfer P idp from v w = Ok (POther (proxy_name n), w') /\
    lookup (idp v) (cache (get w' (negb from))) = Some (n, rc + 1) /\
    made (get w' (negb from)) = made (get w (negb from)).
Proof.
  intros P idp [A B] from v w n rc I Br W X C. rewrite code_transfer_std, (refs_by_reference P idp A B) by assumption.
  unfold lend. rewrite (accept_hit _ _ _ _ C). eexists. split; [reflexivity|]. rewrite get_put2_other. cbn [snd cache set_cache made].
  now rewrite lookup_update, idpack_eqb_refl.
Qed.
Print Assumptions c03_one_proxy.

(* 5'. when there is no live proxy, a fresh one is made: its name differs from every proxy made before *)
Theorem c03_one_proxy_fresh : forall P idp, idp_enc P idp -> forall from v w,
  inv P idp w -> byref (made (get w from)) v -> wf P v = true -> text_ok P v = true ->
  lookup (idp v) (cache (get w (negb from))) = None ->
  let n := nlen (made (get w (negb from))) in
  exists w', code_transfer P idp from v w = Ok (POther (proxy_name n), w') /\
    lookup (idp v) (cache (get w' (negb from))) = Some (n, 1) /\
    (forall m, nth_error (made (get w (negb from))) (N.to_nat m) <> None -> POther (proxy_name m) <> POther (proxy_name n)).
Proof.
  intros P idp [A B] from v w I Br W X C n. rewrite code_transfer_std, (refs_by_reference P idp A B) by assumption.
  unfold lend. rewrite (accept_miss _ _ C). eexists. split; [reflexivity|]. rewrite get_put2_other. cbn [snd cache].
  split; [now rewrite lookup_update, idpack_eqb_refl|apply proxy_name_fresh].
Qed.
Print Assumptions c03_one_proxy_fresh.

(* 5''. dropping the proxy empties the weak cache entry (so 5' applies to the next arrival) and tells the owner *)
Theorem c03_dropped_then_fresh : forall P idp, idp_enc P idp -> forall a n k rc obj c w,
  inv P idp w -> lookup k (cache (get w a)) = Some (n, rc) -> lookup k (ltab (get w (negb a))) = Some (obj, c) ->
  wf P (PInt rc) = true ->
  exists w', drop P Gen_box.box_ladder Gen_box.unbox_ladder idp a n w = Ok w' /\ inv P idp w' /\
    lookup k (cache (get w' a)) = None /\ made (get w' a) = made (get w a).
Proof.
  intros P idp [A B] **. rewrite tie_box_ladder, tie_unbox_ladder. now apply drop_forgets with (rc := rc) (obj := obj) (c := c).
Qed.
Print Assumptions c03_dropped_then_fresh.

(* 6. explicit copy transfer.  PARTIAL, plumbing only: pickle is two uninterpreted functions and NOTHING is assumed
      about them, so "equal" is not claimed here (it is pickle's contract; the harness oracle checks it on real objects).
      What is proved: obtain unpickles, AT THE CALLER, exactly the bytes pickled from the owner's original object (the
      very object stored under the proxy's key) and no table of either party changes, so the result is an object of the
      caller's own and later operations on it are not requests at all; deliver yields the proxy of the object the OTHER
      party unpickled from the bytes of v, registered in that party's table.
      Full statement (not proved): obtain(p) == target(p) and deliver(c, v) refers to an object == v, both independent
      of the original. *)
Section Pickle.
Variable pk_dumps : pyval -> list byte.
Variable pk_loads : list byte -> pyval.

Theorem c03_obtain_deliver_plumbing_partial : forall P idp, idp_enc P idp ->
  (forall a n k rc obj c proto w,
     inv P idp w -> lookup k (cache (get w a)) = Some (n, rc) -> lookup k (ltab (get w (negb a))) = Some (obj, c) ->
     wf P (PInt proto) = true -> wf P (PBytes (pk_dumps obj)) = true ->
     obtain P Gen_box.box_ladder Gen_box.unbox_ladder idp pk_dumps pk_loads a n proto w = Ok (pk_loads (pk_dumps obj), w)) /\
  (forall a v w,
     inv P idp w -> wf P (PBytes (pk_dumps v)) = true ->
     let cp := pk_loads (pk_dumps v) in
     byref (made (get w (negb a))) cp -> wf P cp = true -> text_ok P cp = true ->
     exists w', deliver P Gen_box.box_ladder Gen_box.unbox_ladder idp pk_dumps pk_loads a v w =
                  Ok (fst (accept (idp cp) (get w a)), w') /\
                lookup (idp cp) (ltab (get w' (negb a))) =
                  Some (match lookup (idp cp) (ltab (get w (negb a))) with Some (o, c) => (o, c + 1) | None => (cp, 0) end)).
Proof.
  intros P idp [A B]. rewrite tie_box_ladder, tie_unbox_ladder. split.
  - intros a n k rc obj c proto w I C L W Wb. unfold obtain.
    rewrite (request_via_proxy P idp A B a n k rc obj c w I C L (PInt proto)) by auto using text_ok_nosurr.
    cbn [bind]. now rewrite values_by_copy by auto using text_ok_nosurr.
  - intros a v w I Wb cp Br W X. rewrite deliver_spec, (refs_by_reference P idp A B), negb_involutive by assumption.
    eexists. split; [reflexivity|]. unfold lend. rewrite get_put2_same. cbn [ltab set_ltab]. now rewrite lookup_coll_add, idpack_eqb_refl.
Qed.

(* independence of the delivered copy, as far as the model can say it: an operation applied through the proxy that
   deliver returned is applied to the object the other party unpickled (cp), at that party; nothing is applied at the
   deliverer, where the original v lives *)
Theorem c03_deliver_then_operate_partial : forall P idp, idp_enc P idp -> forall a v d w,
  inv P idp w -> wf P (PBytes (pk_dumps v)) = true ->
  let cp := pk_loads (pk_dumps v) in
  byref (made (get w (negb a))) cp -> wf P cp = true -> text_ok P cp = true -> wf P (PInt d) = true ->
  (forall o c, lookup (idp cp) (ltab (get w (negb a))) = Some (o, c) -> o = cp) ->
  exists n w1 w2,
    deliver P Gen_box.box_ladder Gen_box.unbox_ladder idp pk_dumps pk_loads a v w = Ok (POther (proxy_name n), w1) /\
    mutate P Gen_box.box_ladder Gen_box.unbox_ladder idp a n d w1 = Ok w2 /\
    mlog (get w2 (negb a)) = mlog (get w (negb a)) ++ [(cp, d)] /\
    mlog (get w2 a) = mlog (get w a).
Proof.
  intros P idp [A B] **. rewrite tie_box_ladder, tie_unbox_ladder. now apply deliver_then_mutate.
Qed.
End Pickle.
Print Assumptions c03_obtain_deliver_plumbing_partial.
Print Assumptions c03_deliver_then_operate_partial.

(* 5c. (E1) get_id_pack may answer differently from one step to the next, as long as the packs of the objects that
       are lent at that moment stay what they were: the invariant, hence every theorem above, carries over *)
Theorem c03_id_pack_may_change_when_not_lent : forall P idp idp' w,
  (forall a k o c, lookup k (ltab (get w a)) = Some (o, c) -> idp' o = idp o) ->
  inv P idp w -> inv P idp' w.
Proof.
  intros P idp idp' w H [Ia Ib]. split.
  - exact (inv1_change_idp P idp idp' _ _ (H false) Ia).
  - exact (inv1_change_idp P idp idp' _ _ (H true) Ib).
Qed.
Print Assumptions c03_id_pack_may_change_when_not_lent.

(* ... and when the pack of a LENT object changes (its class is reassigned or renamed), the code as it is breaks the
   clause "received again while a proxy for it is alive = that same proxy": the object arrives as a SECOND proxy while
   the first is alive, and the owner's table holds it under two keys.  [idp_a]/[idp_b]: get_id_pack before/after. *)
Definition idp_a (v : pyval) : idpack := match v with POther k => ([111%N], 1, Z.of_N (k mod 64) + 8) | _ => ([99%N], 1, 7) end.
Definition idp_b (v : pyval) : idpack := match v with POther 4 => ([111%N; 114%N], 2, 12) | _ => idp_a v end.
(* 4300: CPython's default sys.get_int_max_str_digits() *)
Lemma idp_a_enc : idp_enc (Pgen 4300) idp_a.
Proof.
  split; intros u; destruct u; try reflexivity.
  cbn [idp_a pv_of_idpack wf forallb]. replace (is_imm (Z.of_N (k mod 64) + 8)) with true; [reflexivity|].
  symmetry. assert (H : (k mod 64 < 64)%N) by now apply N.mod_upper_bound.
  revert H. generalize (k mod 64)%N. intros m H.   (* lia need not see the mod *)
  unfold is_imm, IMM_LO, IMM_HI. apply andb_true_iff. split; [apply Z.leb_le|apply Z.ltb_lt]; lia.
Qed.
Lemma idp_b_same u : u <> POther 4 -> idp_b u = idp_a u.
Proof.
  intros Hu. destruct u as [| | | | | | | | | | | |k]; try reflexivity.
  destruct k as [|[[[]|[]|]|[[]|[]|]|]]; try reflexivity. now elim Hu.
Qed.
Lemma pyval_eq_4 (u : pyval) : {u = POther 4} + {u <> POther 4}.
Proof. destruct u; try (right; discriminate). destruct (N.eq_dec k 4) as [->|N]; [now left|right; congruence]. Qed.
Lemma idp_b_enc : idp_enc (Pgen 4300) idp_b.
Proof.
  destruct idp_a_enc as [A B]. split; intros u; (destruct (pyval_eq_4 u) as [->|N]; [reflexivity|rewrite (idp_b_same u N)]); auto.
Qed.
Theorem c03_one_proxy_refuted_when_id_pack_changes :
  exists P v w1 p p' w2,
    idp_enc P idp_a /\ idp_enc P idp_b /\ (forall u, u <> v -> idp_b u = idp_a u) /\ byref (made (get world0 true)) v /\
    code_transfer P idp_a true v world0 = Ok (POther (proxy_name p), w1) /\ inv P idp_a w1 /\
    code_transfer P idp_b true v w1 = Ok (POther (proxy_name p'), w2) /\
    p' <> p /\
    (exists rc rc', lookup (idp_a v) (cache (wb w2)) = Some (p, rc) /\ lookup (idp_b v) (cache (wb w2)) = Some (p', rc')) /\
    (exists c c', lookup (idp_a v) (ltab (wa w2)) = Some (v, c) /\ lookup (idp_b v) (ltab (wa w2)) = Some (v, c')).
Proof.
  destruct idp_a_enc as [A B].
  assert (Br : byref (made (get world0 true)) (POther 4)) by (repeat split).
  exists (Pgen 4300), (POther 4), (lend idp_a true (POther 4) world0), 0%N, 1%N. rewrite !code_transfer_std. eexists.
  split; [exact idp_a_enc|]. split; [exact idp_b_enc|]. split; [exact idp_b_same|]. split; [exact Br|].
  split; [now rewrite (refs_by_reference (Pgen 4300) idp_a A B true (POther 4) world0 (inv0 _ _) Br eq_refl eq_refl)|].
  split; [apply lend_inv; auto using inv0|]. split; [vm_compute; reflexivity|]. split; [discriminate|].
  split; [exists 1, 1|exists 0, 0]; vm_compute; split; reflexivity.
Qed.
Print Assumptions c03_one_proxy_refuted_when_id_pack_changes.

(* ... and worse: dropping the FIRST proxy makes the owner release the entry of the SECOND (its _handle_del recomputes the
   key from the object), so that handing the second, live, proxy back to the owner raises KeyError instead of yielding
   the original object *)
Theorem c03_echo_refuted_after_id_pack_change :
  exists P v w1 w2 w3,
    code_transfer P idp_a true v world0 = Ok (POther (proxy_name 0), w1) /\
    code_transfer P idp_b true v w1 = Ok (POther (proxy_name 1), w2) /\
    drop P Gen_box.box_ladder Gen_box.unbox_ladder idp_b false 0 w2 = Ok w3 /\
    (exists rc, lookup (idp_b v) (cache (wb w3)) = Some (1%N, rc)) /\
    code_transfer P idp_b false (POther (proxy_name 1)) w3 = Raise KeyError.
Proof.
  exists (Pgen 4300), (POther 4). rewrite !code_transfer_std, tie_box_ladder, tie_unbox_ladder.
  eexists _, _, _. split; [vm_compute; reflexivity|]. split; [vm_compute; reflexivity|]. split; [vm_compute; reflexivity|].
  split; [exists 1; vm_compute; reflexivity|vm_compute; reflexivity].
Qed.
Print Assumptions c03_echo_refuted_after_id_pack_change.

(* 5d. (E4) the same object arriving twice, the second arrival dispatched while the first waits for the class.
       Under the generated fact (the receiver looks at the proxy cache again after the wait) both arrivals are ONE proxy,
       it counts 2 and one proxy was made ... *)
Theorem c03_one_proxy_nested_when_rechecked : forall k r,
  Gen_box.factory_rechecks_cache_after_inspect = true -> lookup k (cache r) = None ->
  exists n r', nested_arrival Gen_box.factory_rechecks_cache_after_inspect k r = ((POther (proxy_name n), POther (proxy_name n)), r') /\
    lookup k (cache r') = Some (n, 2) /\ made r' = made r ++ [k].
Proof.
  intros k r F H. rewrite F, (nested_arrival_rechecked k r H). eexists _, _. split; [reflexivity|].
  cbn [cache made]. now rewrite lookup_update, idpack_eqb_refl.
Qed.
Print Assumptions c03_one_proxy_nested_when_rechecked.

(* ... and without it the clause "received again while a proxy for it is alive = that same proxy" FAILS: the two arrivals
   are two different proxies, both alive, each counting 1, and the cache knows only the later one *)
Theorem c03_one_proxy_nested_refuted : forall k r,
  Gen_box.factory_rechecks_cache_after_inspect = false -> lookup k (cache r) = None ->
  exists n m r', nested_arrival Gen_box.factory_rechecks_cache_after_inspect k r = ((POther (proxy_name m), POther (proxy_name n)), r') /\
    POther (proxy_name m) <> POther (proxy_name n) /\ lookup k (cache r') = Some (m, 1) /\ made r' = (made r ++ [k]) ++ [k].
Proof.
  intros k r F H. rewrite F, (nested_arrival_stale k r H). eexists _, _, _. split; [reflexivity|].
  split; [intros E; apply proxy_name_inj in E; lia|]. cbn [cache made]. now rewrite lookup_update, idpack_eqb_refl.
Qed.
Print Assumptions c03_one_proxy_nested_refuted.

(* 7. all orders of sending, echoing back, re-receiving, dropping and operating through proxies: no step of a
      history of well-behaved parties raises, and the invariant the theorems above assume holds throughout *)
Theorem c03_histories : forall P idp, idp_enc P idp -> forall ops,
  good P idp world0 ops ->
  Forall is_ok (fst (run P Gen_box.box_ladder Gen_box.unbox_ladder idp ops world0)) /\
  inv P idp (snd (run P Gen_box.box_ladder Gen_box.unbox_ladder idp ops world0)).
Proof. intros P idp [A B] ops G. rewrite tie_box_ladder, tie_unbox_ladder. apply run_inv; auto. apply inv0. Qed.
Print Assumptions c03_histories.

Theorem c03_step_keeps_invariant : forall P idp, idp_enc P idp -> forall o w,
  inv P idp w -> valid_op P w o ->
  exists v w', step P Gen_box.box_ladder Gen_box.unbox_ladder idp o w = Ok (v, w') /\ inv P idp w'.
Proof. intros P idp [A B] **. rewrite tie_box_ladder, tie_unbox_ladder. now apply step_inv. Qed.
Print Assumptions c03_step_keeps_invariant.

(* 8. the generated ladders, labels and get_id_pack facts of the current source tree that the theorems above rest on, by evaluation *)
Theorem c03_tie :
  Gen_box.box_ladder = std_bladder /\ Gen_box.unbox_ladder = std_uladder /\
  (Gen_consts.LABEL_VALUE, Gen_consts.LABEL_TUPLE, Gen_consts.LABEL_LOCAL_REF, Gen_consts.LABEL_REMOTE_REF) = (1, 2, 3, 4) /\
  Gen_box.id_pack_instance = ["name_pack"; "id(type(obj))"; "id(obj)"]%string /\
  Gen_box.id_pack_class = ["name_pack"; "id(obj)"; "0"]%string /\
  Gen_box.dumpable_tests_exact_types = true /\
  Gen_box.obtain_is_loads_of_dumps = true /\ Gen_box.deliver_is_remote_loads_of_local_dumps = true /\
  Gen_box.id_pack_netref_test_on_type = true /\ Gen_box.id_pack_undefined_names = [] /\
  List.length Gen_box.id_pack_module_returns = 2%nat /\ List.length Gen_box.id_pack_module_names = 5%nat.
Proof.
  repeat apply conj; reflexivity.
Qed.
Print Assumptions c03_tie.

(* ---- non-vacuity ---- *)
Definition idp_small (v : pyval) : idpack :=
  match v with
  | POther k => ([111%N], 1, Z.of_N (k mod 64) + 8)
  | _ => ([99%N], 1, 7)
  end.
Lemma idp_small_enc : idp_enc (Pgen 4300) idp_small.
Proof. exact idp_a_enc. Qed.

Definition PP := Pgen 4300.
(* a nested value mixing plain values, a list-like object (POther 4), a class (POther 6), a subclass instance (POther 8),
   a frozenset holding an object, and the same object twice *)
Definition mixed : pyval :=
  PTuple [PInt 5; POther 4; PTuple [PStr [0x20ac%N; 0x41%N]; POther 6; PTuple [PNone; POther 4]];
          PFset [POther 8; PInt 1]; PSlice PNone (PInt (-49)) (PBytes [x00; xff])].
Definition plain : pyval :=
  PTuple [PTuple []; PInt (10 ^ 40); PFset [PBool true; PEllipsis; PTuple [PNotImpl; PStr [0x10ffff%N]]];
          PSlice PNone (PInt 3) (PTuple [PBytes [x01]]); PFloat [x7f; xf8; x00; x00; x00; x00; x01; x23]].

(* 1: a nested plain value meets the hypotheses and arrives unchanged *)
Example c03_ex_values :
  dumpable plain = true /\ wf PP plain = true /\ text_ok PP plain = true /\
  code_transfer PP idp_small true plain world0 = Ok (plain, world0).
Proof. vm_compute. repeat split. Qed.

(* 2, 2', 2'': the mixed tuple from the initial world: values copied, objects replaced by proxies 0,1,2 (the second
   occurrence of POther 4 is the same proxy), the frozenset-with-object by a proxy of its own *)
Example c03_ex_mixed :
  wf PP mixed = true /\ text_ok PP mixed = true /\ held (get world0 true) mixed = true /\
  match code_transfer PP idp_small true mixed world0 with
  | Ok (v, w) => v = PTuple [PInt 5; POther 1; PTuple [PStr [0x20ac%N; 0x41%N]; POther 3; PTuple [PNone; POther 1]];
                            POther 5; PSlice PNone (PInt (-49)) (PBytes [x00; xff])]
                 /\ map (fun e => snd (snd e)) (cache (wb w)) = [2; 1; 1]
                 /\ map (fun e => snd (snd e)) (ltab (wa w)) = [1; 0; 0]
  | _ => False
  end.
Proof. vm_compute. repeat split. Qed.

(* 3, 4, 4', 5, 5'': a world with a live proxy satisfying [inv] and the lookups exists: send an object once *)
Example c03_ex_linked :
  byref (made (get world0 true)) (POther 4) /\
  exists p w1, code_transfer PP idp_small true (POther 4) world0 = Ok (POther (proxy_name p), w1) /\
    linked PP idp_small true p (POther 4) w1 /\
    hops PP idp_small 6 true (POther 4) world0 = Ok (POther 4, snd (match hops PP idp_small 6 true (POther 4) world0 with Ok x => x | _ => (PNone, world0) end)).
Proof.
  assert (Br : byref (made (get world0 true)) (POther 4)) by (repeat split). split; [exact Br|].
  destruct idp_small_enc as [A B]. pose proof (inv0 PP idp_small) as I0.
  destruct (first_send_links PP idp_small A B true (POther 4) world0 I0 Br eq_refl eq_refl) as (p & E & L); [discriminate|].
  exists p, (lend idp_small true (POther 4) world0).
  rewrite code_transfer_std, (refs_by_reference PP idp_small A B true (POther 4) world0 I0 Br eq_refl eq_refl), E.
  split; [reflexivity|]. split; [exact L|]. vm_compute. reflexivity.
Qed.

(* 7: a history with every kind of step: its outcomes, none of which raises, and the owner's log *)
Definition hist : list op :=
  [Send true mixed; Send false (PTuple [POther 1; POther 12]); Mutate false 0 7; Send true (POther 4);
   Drop false 0; Send true (POther 4); Drop true 0].
Example c03_ex_history :
  fst (run PP std_bladder std_uladder idp_small hist world0) =
    [Ok (PTuple [PInt 5; POther 1; PTuple [PStr [0x20ac%N; 0x41%N]; POther 3; PTuple [PNone; POther 1]];
                 POther 5; PSlice PNone (PInt (-49)) (PBytes [x00; xff])]);
     Ok (PTuple [POther 4; POther 1]); Ok PNone; Ok (POther 1); Ok PNone; Ok (POther 7); Ok PNone] /\
  mlog (wa (snd (run PP std_bladder std_uladder idp_small hist world0))) = [(POther 4, 7)].
Proof. vm_compute. split; reflexivity. Qed.

(* 5d: both hypotheses' shapes occur: an empty receiver, and the fact has one of the two values on every tree *)
Example c03_ex_nested :
  lookup ([111%N], 1, 12) (cache side0) = None /\
  fst (nested_arrival true ([111%N], 1, 12) side0) = (POther 1, POther 1) /\
  fst (nested_arrival false ([111%N], 1, 12) side0) = (POther 3, POther 1) /\
  (Gen_box.factory_rechecks_cache_after_inspect = true \/ Gen_box.factory_rechecks_cache_after_inspect = false).
Proof. repeat split; try reflexivity. exact tie_factory. Qed.
