(* C08 — Every request gets exactly one response, delivered to its own requester. *)
(* SCOPE. The model serves one request at a time and a response frame, once encoded, reaches the wire or ends the stream. With several
   threads sharing the connection the thread holding the send lock also writes frames queued by the others (C12); a write that fails
   WITHOUT ending the stream (a frame of 4 GiB or more, MemoryError in zlib: known finding F52 under C12) then raises in the holder's
   own _send although the holder's frame went out: a request already answered gets a second, exception response and the request whose
   frame failed gets none. That history is outside these theorems; it is recorded under F52. *)
From V Require Import lib.Base model.Proto proofs.ProtoP proofs.ProtoTie gen.Gen_dispatch.

(* 1. with every step of serving a request inside the guarded region (and the encoding of the answer guarded too), for any
      stream of requests with distinct numbers and ANY outcomes — malformed request, undecodable arguments, unknown handler,
      handler failure, unencodable result, unencodable exception — each request gets exactly one response frame bearing its
      own number, its handler runs at most once, and nothing escapes the serving loop. The ONE exclusion ([answerable]): a handler
      raising SystemExit / KeyboardInterrupt on a connection whose configuration marks that class for local propagation, on a tree
      that re-raises those (theorem 2b: that request is NOT answered; finding F26 for the default configuration) *)
Theorem c08_exactly_one_response : forall P reqs, fully_guarded P = true -> NoDup (map fst reqs) ->
  Forall (fun qo => answerable P (snd qo) = true) reqs ->
  forall q o, In (q, o) reqs -> responses_for q (serve_all P reqs) = 1%nat
  /\ Forall (fun r => crashed r = false /\ invoked r <= 1) (serve_all P reqs).
Proof. exact stream_exactly_one. Qed.
Print Assumptions c08_exactly_one_response.

(* 2. on a tree whose reply (or exception record) is encoded outside any guard the clause fails: the request gets no
      response at all and an exception escapes _dispatch_request (finding F2) *)
Theorem c08_unencodable_result_refuted : forall P seq, Proto.reply_encode_guarded P = false ->
  sent (serve_request P seq (OValue false)) = [] /\ crashed (serve_request P seq (OValue false)) = true.
Proof. exact unencodable_result_refuted. Qed.
Theorem c08_unencodable_exception_refuted : forall P seq, Proto.handler_in_try P = true -> Proto.exc_encode_guarded P = false ->
  sent (serve_request P seq (ORaise false)) = [] /\ crashed (serve_request P seq (ORaise false)) = true.
Proof. exact unencodable_exception_refuted. Qed.
Print Assumptions c08_unencodable_result_refuted.
Print Assumptions c08_unencodable_exception_refuted.

(* 2b. "requests whose handler fails ... the requester gets an exception and the connection remains usable" is FALSE for an exception class
       the configuration marks for local propagation: the handler ran, no frame is sent, the exception leaves the serving loop
       (which ends the connection). [c08_live_marked]: the current tree re-raises marked classes, and its DEFAULT configuration marks
       KeyboardInterrupt (not SystemExit) - known finding F26 *)
Theorem c08_marked_exception_refuted : forall P seq, Proto.handler_in_try P = true -> Proto.reraises_marked P = true ->
  let r := serve_request P seq ORaiseMarked in sent r = [] /\ crashed r = true /\ invoked r = 1%nat.
Proof. exact marked_exception_unanswered. Qed.
Print Assumptions c08_marked_exception_refuted.
Theorem c08_live_marked : Proto.reraises_marked Pgen = Gen_dispatch.reraises_marked
  /\ (Gen_dispatch.reraises_marked = true -> Gen_dispatch.default_marks_KeyboardInterrupt = true /\ Gen_dispatch.default_marks_SystemExit = false).
Proof. split; [reflexivity|]. vm_compute. intros _. split; reflexivity. Qed.
Print Assumptions c08_live_marked.

(* 3. routing at the requester, over any history of requests and responses: registered numbers are pairwise distinct and below
      the counter; a response invokes exactly the callback registered under its number and removes it, an unknown number
      invokes nothing; an answered number stays unknown; a failed send leaves no dangling registration *)
Theorem c08_registered_numbers_distinct : forall evs, InvR (fold_left req_step evs init_req).
Proof. exact invR_run. Qed.
Theorem c08_routing : forall s q is_exc,
  (forall cb, find_key q (callbacks s) = Some cb ->
     log (req_step s (EResponse q is_exc)) = log s ++ [(cb, is_exc)] /\ ~ In q (keys (req_step s (EResponse q is_exc)))
     /\ forall x, x <> q -> find_key x (callbacks (req_step s (EResponse q is_exc))) = find_key x (callbacks s))
  /\ (find_key q (callbacks s) = None -> req_step s (EResponse q is_exc) = s).
Proof. exact response_routing. Qed.
Theorem c08_answered_stays_unknown : forall s q is_exc e, InvR s -> find_key q (callbacks s) <> None ->
  find_key q (callbacks (req_step (req_step s (EResponse q is_exc)) e)) = None.
Proof. intros s q is_exc e. exact (answered_stays_unknown_forever s q is_exc [e]). Qed.
Theorem c08_answered_stays_unknown_forever : forall s q is_exc evs, InvR s -> find_key q (callbacks s) <> None ->
  find_key q (callbacks (fold_left req_step evs (req_step s (EResponse q is_exc)))) = None.
Proof. exact answered_stays_unknown_forever. Qed.
Print Assumptions c08_answered_stays_unknown_forever.
Theorem c08_send_failure_unregisters : forall s cb, callbacks (req_step s (ERequest cb false)) = callbacks s.
Proof. exact send_failure_unregisters. Qed.
(* a response whose payload cannot be rebuilt at the requester (e.g. an exception class that cannot be re-created there): on a tree that
   guards the decoding it is routed exactly like an exception response to the same request; on a tree that does not, nothing changes at
   the requester - the request is never completed and its callback stays registered (refutation of "every response is delivered") *)
Theorem c08_undecodable_response : forall s q, req_step s (EUndecodable q true) = req_step s (EResponse q true).
Proof. intros s q. exact (proj1 (undecodable_response s q)). Qed.
Theorem c08_undecodable_response_refuted_when_unguarded : forall s q cb, find_key q (callbacks s) = Some cb ->
  find_key q (callbacks (req_step s (EUndecodable q false))) = Some cb /\ log (req_step s (EUndecodable q false)) = log s.
Proof. intros s q cb H. rewrite (proj2 (undecodable_response s q)). auto. Qed.
Print Assumptions c08_undecodable_response.
Print Assumptions c08_undecodable_response_refuted_when_unguarded.
Print Assumptions c08_registered_numbers_distinct.
Print Assumptions c08_routing.
Print Assumptions c08_answered_stays_unknown.
Print Assumptions c08_send_failure_unregisters.

(* 4. tie: what the source says now.  [c08_live]: one of them applies to the current tree, whichever values the generated facts have:
      theorem 1 (every step guarded), or, while the tree encodes replies or exception records outside the guard, theorem 2. *)
Theorem c08_tie : Gen_dispatch.unpack_in_try = true /\ Gen_dispatch.unbox_in_try = true /\ Gen_dispatch.handler_in_try = true
  /\ Gen_dispatch.dispatch_routing_is_standard = true /\ Gen_dispatch.callback_popped_then_called = true
  /\ Gen_dispatch.async_request_registers_then_sends_and_pops_on_failure = true /\ Gen_dispatch.response_decode_guarded = true.
Proof. pose proof tie_guarded_region. pose proof tie_requester. repeat split; tauto. Qed.
Print Assumptions c08_tie.
Theorem c08_live : (fully_guarded Pgen = true) \/ (Proto.reply_encode_guarded Pgen = false) \/ (Proto.exc_encode_guarded Pgen = false).
Proof. vm_compute. tauto. Qed.
Print Assumptions c08_live.

(* non-vacuity *)
Example c08_stream_sample :
  responses_for 5 (serve_all std_params [(4, OBadArgs); (5, OValue false); (6, ORaise false); (7, OValue true); (8, ONoHandler)]%Z) = 1%nat
  /\ map sent (serve_all std_params [(5, OValue false); (7, OValue true)]%Z) = [[FExc 5]; [FReply 7]]%Z
  /\ Forall (fun qo => answerable std_params (snd qo) = true) [(4, OBadArgs); (5, OValue false); (6, ORaise false); (7, OValue true); (8, ONoHandler)]%Z
  /\ answerable std_params ORaiseMarked = false.
Proof. vm_compute. repeat split; repeat constructor. Qed.
