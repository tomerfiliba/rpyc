(* C14 — A waiter returns as soon as its reply has been processed by any thread.
   On the current tree this is FALSE (finding F5): serve() gives up the receive lock and notifies before it dispatches,
   and a waiter that takes the free lock in that window blocks in poll() on a stream from which its reply is already gone.
   Both directions are machine-checked: the refutation with an explicit schedule, and the theorem that this window
   (the waiter polling an empty stream, or sleeping behind a thread that is about to notify) is where a held-up waiter is found,
   and (history) that a polling waiter got there straight from a readiness test made before the dispatch. *)
From V Require Import lib.Base model.Serve proofs.ServeP proofs.ServeG proofs.ServeL proofs.ServeTie gen.Gen_serve.
From V Require proofs.ServeF.

Fixpoint runl (s : st) (evs : list (label * nat)) : option st :=
  match evs with [] => Some s | (l, i) :: r => match step l i s with Some s' => runl s' r | None => None end end.

(* the witness: W = thread 0 (client), B = thread 1 (background server) *)
Definition stall_schedule : list (label * nat) :=
  [(LIssue, 0); (LIssue, 1); (LAnswer 0, 0);
   (LStep, 1); (LStep, 1);        (* B: loop test, takes the receive lock *)
   (LStep, 1);                    (* B: reads W's reply from the stream *)
   (LStep, 1);                    (* B: releases the receive lock *)
   (LStep, 0); (LStep, 0);        (* W: not ready yet -> serve -> takes the free lock, now polling an empty stream *)
   (LStep, 1); (LStep, 1)].       (* B: notify_all, then dispatches W's reply: the result is ready *)

Theorem c14_prompt_refuted : exists s, reach (init (fun i => Nat.eqb i 1)) s /\ stalled s 0.
Proof.
  exists (ServeF.run_end (init (fun i => Nat.eqb i 1)) stall_schedule).
  split; [apply (ServeF.runl_reach _ stall_schedule _ _ (r0 _)), ServeF.runl_end; reflexivity|].
  exists 0. repeat split.
Qed.
Print Assumptions c14_prompt_refuted.

(* the complement, as far as a model without a clock can say it: a waiter whose reply has been processed and that cannot take a program
   step NOW (it has neither returned nor given up) is polling an empty stream itself, or asleep on the condition with some thread still
   due to notify. This classifies the blocked states; that such a waiter then stays blocked until a timeout or new traffic is the
   refutation above (and c13_completion_refuted_without_deadline for waits without a deadline); "how late" is measured by the harness
   in virtual time, which also checks from the event trace that every late waiter entered through this window *)
Theorem c14_only_this_window : forall servers s w q, reach (init servers) s ->
  myseq (thrs s w) = Some q -> ready s q = true -> tpc (thrs s w) <> Returned -> tpc (thrs s w) <> TimedOut -> step LStep w s = None ->
  (tpc (thrs s w) = S2 /\ inbox s = []) \/ (tpc (thrs s w) = Asleep /\ exists h, will_notify (tpc (thrs s h)) = true).
Proof. intros servers s w q R Hm _. exact (blocked_only_in_window s w q (invA_reach _ _ R) (invB_reach _ _ R) Hm). Qed.
Print Assumptions c14_only_this_window.

(* the window as HISTORY (proofs/ServeG.v: a ghost layer over the same transition system records, per thread, how many dispatches had
   happened at its last readiness test and whether it has slept on the condition since): in every execution, a waiter that is past
   its test - trying for the lock, holding it, polling - made that test when its reply had NOT been dispatched yet, and has not slept
   since: it came straight from the test. So the held-up waiters of c14_only_this_window that poll are exactly those that tested just
   before the dispatch; a thread that is woken from the condition goes back to the test first (with its reply processed it returns).
   This is what the harness checks on the event trace of the real code before it files a lateness under the known finding. *)
Theorem c14_window_entered_from_the_test : forall servers s g w q, greach (init servers) s g ->
  myseq (thrs s w) = Some q -> past_test (tpc (thrs s w)) = true ->
  ~ In q (firstn (tlen g w) (dispatched s)) /\ slept g w = false.
Proof. exact window_entered_from_the_test. Qed.
Print Assumptions c14_window_entered_from_the_test.
Theorem c14_every_execution_has_its_ghost : forall servers s, reach (init servers) s -> exists g, greach (init servers) s g.
Proof. intros servers s. apply reach_greach. Qed.
Print Assumptions c14_every_execution_has_its_ghost.
(* non-vacuity: along the refutation's schedule W (thread 0) ends polling with its reply dispatched; its last test saw 0 dispatches *)
Fixpoint grunl (s : st) (g : ghost) (evs : list (label * nat)) : option (st * ghost) :=
  match evs with [] => Some (s, g) | (l, i) :: r => match step l i s with Some s' => grunl s' (gupd l i s g) r | None => None end end.
Example c14_window_sample :
  match grunl (init (fun i => Nat.eqb i 1)) g_init stall_schedule with
  | Some (s, g) => tpc (thrs s 0) = S2 /\ dispatched s = [0] /\ tlen g 0 = 0 /\ slept g 0 = false /\ ready s 0 = true
  | None => False
  end.
Proof. vm_compute. repeat split. Qed.

(* the BOUNDED half (proofs/ServeL.v): the hold-up above is never a deadlock and never longer than one timeout of the waiter itself.
   From every reachable state in which the waiter's reply has been processed and the waiter is anywhere inside wait()/serve(), the
   waiter's OWN moves - its next program step whenever it has one, its poll()/Condition.wait() timeout when it has none - bring it to
   Returned within six moves, at most one of them a timeout; no step of any other thread, no further traffic, no notification is
   needed. (own_n n w s = Some (s', t): after at most n own moves of w from s the state is s', t timeouts were used.) *)
Theorem c14_late_waiter_returns_alone : forall servers s w q, reach (init servers) s ->
  myseq (thrs s w) = Some q -> ready s q = true -> in_loop (tpc (thrs s w)) = true ->
  exists s' t, own_n 6 w s = Some (s', t) /\ tpc (thrs s' w) = Returned /\ t <= 1.
Proof.
  intros servers s w q R Hm Hr Hl.
  destruct (late_waiter_returns_alone s w q (invA_reach _ _ R) (invB_reach _ _ R) Hm Hr Hl) as (s' & t & H & Hret).
  exists s', t. split; [exact H|]. split; [exact Hret|].
  exact (at_most_one_timeout 6 s w q s' t (invA_reach _ _ R) (invB_reach _ _ R) Hm Hr Hl H).
Qed.
Print Assumptions c14_late_waiter_returns_alone.
(* ... and a timeout is needed ONLY in the window of c14_only_this_window or one step before it (near_window: asleep; polling an empty
   stream; at the try-acquire with the lock taken, or with the lock free and nothing to read): everywhere else a waiter whose reply
   has been processed returns by program steps alone - "as soon as", in the property's words *)
Theorem c14_timeout_needed_only_near_the_window : forall servers n s w q s' t, reach (init servers) s ->
  myseq (thrs s w) = Some q -> ready s q = true -> in_loop (tpc (thrs s w)) = true ->
  own_n n w s = Some (s', t) -> t <> 0 -> near_window s w.
Proof.
  intros servers n s w q s' t R. apply alone_needs_timeout_only_in_window; [exact (invA_reach _ _ R)|exact (invB_reach _ _ R)].
Qed.
Print Assumptions c14_timeout_needed_only_near_the_window.
(* non-vacuity: at the end of the refutation's schedule W is polling an empty stream with its reply dispatched; alone it returns in
   five moves, exactly one of them its timeout (S2 -timeout-> S3 -> S4 -> LoopTest -> Returned) *)
Example c14_stalled_waiter_gets_out_by_its_timeout :
  match runl (init (fun i => Nat.eqb i 1)) stall_schedule with
  | Some s => match own_n 6 0 s with Some (s', t) => tpc (thrs s' 0) = Returned /\ t = 1 | None => False end
  | None => False
  end.
Proof. vm_compute. split; reflexivity. Qed.

(* the generated program has the order the refutation uses: release, notify_all, then dispatch *)
Theorem c14_program_is_current : Gen_serve.serve_prog = Serve.serve_prog.
Proof. exact tie_serve_prog. Qed.
Print Assumptions c14_program_is_current.
