(* C11 — Every way a connection can end leaves both sides clean, once, and nobody hanging.
   One side is a state machine over its entry points (close(), the peer's close request, EOF/failure while reading in serve,
   EOF/failure while writing from inside a dispatch, under wait or under serve_all); the theorems quantify over every history
   of entry points and every outcome of the transport calls they make.  (The byte offset of a read fault is immaterial to
   this logic: header and body reads fail on the same path; offsets are enumerated on the real code by the harness.) *)
From V Require Import lib.Base model.Lifecycle proofs.LifecycleP proofs.LifecycleTie gen.Gen_lifecycle.

(* 1. the disconnect hook never runs twice, in any history, whatever fails *)
Theorem c11_hook_at_most_once : forall P hr es, core_ok P = true -> hooks (runs P hr es fresh) <= 1.
Proof. intros P hr es HP. destruct (runs_cases P hr es HP) as [[o ->]| ->]; cbn; lia. Qed.
Print Assumptions c11_hook_at_most_once.

(* 2. whenever a side reports closed - observed BETWEEN entry points, i.e. when close()/serve()/the dispatch has returned control: inside
      close() itself the flag is set first and the hook runs last, a state [do_close] passes through and another thread could see - its
      hook has run exactly once, the objects it held are released, its channel is closed *)
Theorem c11_closed_means_clean : forall P hr es, core_ok P = true -> closed (runs P hr es fresh) = true -> ended_clean (runs P hr es fresh).
Proof. intros P hr es HP. destruct (runs_cases P hr es HP) as [[o ->]| ->]; [discriminate|repeat split]. Qed.
Print Assumptions c11_closed_means_clean.

(* 3. after any history, a side that closes, is told to close, or meets the failure while serving IS closed and clean when
      control returns — for every outcome of the write close() makes (fine, EOFError, any other failure) *)
Theorem c11_ends_clean : forall P hr es e, core_ok P = true -> must_end P e = true -> ended_clean (fst (step P hr e (runs P hr es fresh))).
Proof. exact ends_clean. Qed.
Print Assumptions c11_ends_clean.

(* 4. closing again is a no-op *)
Theorem c11_close_idempotent : forall P hr w s, Lifecycle.close_checks_closed_first P = true -> closed s = true -> do_close P hr w s = (s, RNone).
Proof. exact close_idempotent. Qed.
Print Assumptions c11_close_idempotent.

(* 5. F6: on a tree whose serve() does not close when EOFError escapes _dispatch, a side that meets the failure while it serves a
      callback during AsyncResult.wait stays open and its hook never runs; [must_end] then excludes that entry point from 3 *)
Theorem c11_fault_in_dispatch_refuted : forall P hr, Lifecycle.serve_dispatch_eof_closes P = false ->
  let s := fst (step P hr (EDispatchEof InWait) fresh) in closed s = false /\ hooks s = 0.
Proof. exact dispatch_eof_refuted. Qed.
Print Assumptions c11_fault_in_dispatch_refuted.

(* 5b. the service's disconnect hook may raise ([hr] above is "the hook raises"; theorems 1-4 hold either way once the clearing sits in
       a finally). On a tree where it does not, close() with a raising hook leaves the side reporting closed with everything it held for
       the peer still in place, for ever (closing again is the identity) *)
Theorem c11_raising_hook_refuted : forall P w, Lifecycle.cleanup_clears_in_finally P = false -> Lifecycle.close_checks_closed_first P = true ->
  Lifecycle.close_sets_closed_before_io P = true -> Lifecycle.close_cleanup_in_finally P = true ->
  let s := fst (do_close P true w fresh) in
  closed s = true /\ has_root s = true /\ forall w', do_close P true w' s = (s, RNone).
Proof. exact raising_hook_refuted. Qed.
Print Assumptions c11_raising_hook_refuted.

(* 5d. close() is not atomic ("both at once"): it sets the flag, runs the before_closed hook / fetches the root - requests during which
       the side serves - and only then writes its own close request and cleans up; [ECloseServing] is a close() during whose serving the
       PEER's close request is dispatched. Theorems 1-3 cover it (it is an entry point of every history: clean afterwards, hook at most
       once). What the handler's form decides is what close() raises: with the guarded handler (_cleanup(_anyway=False)) nothing of its
       own; with the raw cleanup as handler the cleanup at the end of the same close() finds the handler table already deleted -
       AttributeError out of close() on a side where nothing else went wrong. [c11_live_close_serving]: one of the two is the case on
       this tree, whichever value the generated fact has. *)
Theorem c11_close_while_serving_quiet : forall P w s, core_ok P = true -> Lifecycle.handle_close_guarded P = true -> Inv s -> closed s = false -> w <> WErr ->
  step P false (ECloseServing w) s = ({| closed := true; hooks := 1; has_root := false; chan_open := false |}, RNone).
Proof. exact close_while_serving_quiet. Qed.
Theorem c11_close_while_serving_refuted : forall P w, core_ok P = true -> Lifecycle.handle_close_guarded P = false ->
  step P false (ECloseServing w) fresh = ({| closed := true; hooks := 1; has_root := false; chan_open := false |}, RAttr).
Proof. exact close_while_serving_refuted. Qed.
Theorem c11_live_close_serving :
  (Lifecycle.handle_close_guarded Pgen = true /\ forall w, w <> WErr -> snd (step Pgen false (ECloseServing w) fresh) = RNone)
  \/ (Lifecycle.handle_close_guarded Pgen = false /\ forall w, snd (step Pgen false (ECloseServing w) fresh) = RAttr).
Proof.
  destruct (Lifecycle.handle_close_guarded Pgen) eqn:E.
  - left. split; [reflexivity|]. intros w Hw. now rewrite (close_while_serving_quiet Pgen w fresh tie_core E inv_fresh eq_refl Hw).
  - right. split; [reflexivity|]. intros w. now rewrite (close_while_serving_refuted Pgen w tie_core E).
Qed.
Print Assumptions c11_close_while_serving_quiet.
Print Assumptions c11_close_while_serving_refuted.
Print Assumptions c11_live_close_serving.

(* 5c. the property's second sentence, over the requests of a side (issued at any time, answered or not, the side ending in any way):
       once the side has ended nobody keeps waiting - every request has its value (exactly when the peer's reply was dispatched:
       no phantom values) or fails with EOFError; a request issued after the end fails with EOFError and registers nothing.
       What the model takes from the code are three GENERATED facts [rc : rfacts] (c11_request_facts: all three hold on this tree):
       every use of a closed stream's descriptor raises EOFError (so serve()/wait() on an ended side fail at once), _cleanup clears
       the callback table, _async_request on a closed channel raises EOFError. The first two are hypotheses of the theorems that need
       them, each with a refutation for a tree without it; the third no theorem reads: a request issued on a closed channel fails
       with EOFError in the model either way (refused up front, or its write fails at once). Threads blocked inside poll/wait when the end comes are the scheduler scenarios of the harness, not this model. *)
Theorem c11_ended_nobody_waits : forall P hr rc es e id, core_ok P = true -> Lifecycle.closed_stream_raises_eof rc = true -> must_end P e = true ->
  wait_outcome rc (rstep P hr rc (RBase e) (rruns P hr rc es rfresh)) id <> WKeepsWaiting.
Proof. intros P hr rc es e id HP Hf Hm. apply ended_nobody_waits; [exact Hf|]. left. now rewrite base_ends. Qed.
(* ... which rests on a fact of stream.py (generated: every use of a closed stream's descriptor raises EOFError): without it a request
   pending when the side ended waits for ever *)
Theorem c11_ended_waits_refuted : forall rc s id, Lifecycle.closed_stream_raises_eof rc = false -> ~ In id (got s) -> ~ In id (failed s) ->
  wait_outcome rc s id = WKeepsWaiting.
Proof. exact ended_waits_refuted. Qed.
(* nothing stays registered on a side that has ended - a fact of _cleanup (generated: the clears include the callback table) *)
Theorem c11_ended_nothing_registered : forall P hr rc es e, core_ok P = true -> Lifecycle.cleanup_clears_callbacks rc = true -> must_end P e = true ->
  pend (rstep P hr rc (RBase e) (rruns P hr rc es rfresh)) = [].
Proof.
  intros P hr rc es e HP Hf Hm. pose proof (base_ends P hr rc es e HP Hm) as E. cbn [rstep pend base] in *. now rewrite E, Hf.
Qed.
Theorem c11_ended_registered_refuted : forall P hr rc es e, Lifecycle.cleanup_clears_callbacks rc = false ->
  pend (rstep P hr rc (RBase e) (rruns P hr rc es rfresh)) = pend (rruns P hr rc es rfresh).
Proof. intros P hr rc es e. apply base_keeps_pend. Qed.
Theorem c11_no_phantom_value : forall P hr rc es id, wait_outcome rc (rruns P hr rc es rfresh) id = WValue -> In (RReply id) es.
Proof. intros P hr rc es id H. destruct (got_runs P hr rc es rfresh id (wait_value rc _ id H)) as [[]|H']; exact H'. Qed.
Theorem c11_issue_after_end : forall P hr rc s id w, chan_open (base s) = false ->
  pend (rstep P hr rc (RIssue id w) s) = pend s /\ (~ In id (got s) -> wait_outcome rc (rstep P hr rc (RIssue id w) s) id = WEofError).
Proof. exact issue_after_end. Qed.
(* the three facts as the current tree has them *)
Theorem c11_request_facts : Fgen = std_rfacts.
Proof. exact tie_rfacts. Qed.
Print Assumptions c11_ended_waits_refuted.
Print Assumptions c11_ended_nothing_registered.
Print Assumptions c11_ended_registered_refuted.
Print Assumptions c11_request_facts.
Print Assumptions c11_ended_nobody_waits.
Print Assumptions c11_no_phantom_value.
Print Assumptions c11_issue_after_end.

(* 6. tie: the source's close/_cleanup/serve/serve_all have the guarded shapes; [c11_live]: for the dispatch-write entry point either 3 or 5 applies to the
      current tree, whichever value the generated fact has *)
Theorem c11_tie : core_ok Pgen = true /\ Gen_lifecycle.handle_close_is_cleanup = true /\ Gen_lifecycle.serve_read_eof_closes = true
  /\ Gen_lifecycle.serve_all_finally_closes = true.
Proof. pose proof tie_entry_points. split; [exact tie_core|tauto]. Qed.
Print Assumptions c11_tie.
Theorem c11_live : (forall c, must_end Pgen (EDispatchEof c) = true) \/ Lifecycle.serve_dispatch_eof_closes Pgen = false.
Proof. vm_compute. first [left; intros []; reflexivity | right; reflexivity]. Qed.
Print Assumptions c11_live.

(* non-vacuity: both sides' typical endings *)
Example c11_histories :
  ended_clean (runs std_params false [EClose WErr; EClose WOk; EHandleClose] fresh)
  /\ ended_clean (runs std_params true [EServeReadEof InWait; EClose WOk; EDispatchEof InServeAll] fresh)
  /\ hooks (runs std_params true [EDispatchEof InWait; EHandleClose; EServeReadEof InServeAll; EClose WEof] fresh) = 1
  /\ ended_clean (runs std_params false [ECloseServing WEof; EClose WOk] fresh).
Proof. vm_compute. repeat split. Qed.
(* requests 1 and 2 issued, 1 answered, the peer closes, request 3 issued afterwards: 1 has its value, 2 and 3 fail with EOFError *)
Example c11_requests_sample :
  let F := std_rfacts in
  let s := rruns std_params false F [RIssue 1 WOk; RIssue 2 WOk; RReply 1; RBase EHandleClose; RIssue 3 WOk] rfresh in
  wait_outcome F s 1 = WValue /\ wait_outcome F s 2 = WEofError /\ wait_outcome F s 3 = WEofError /\ pend s = []
  /\ wait_outcome F (rruns std_params false F [RIssue 1 WOk] rfresh) 1 = WKeepsWaiting.
Proof. vm_compute. repeat split. Qed.
