(* Proofs about model/Async.v.  Each operation has one lemma saying what it does ([dispatch_spec]: three explicit worlds;
   [serve_spec]); a history is a sequence of [move]s, so a fact about all histories is one case analysis ([run_inv]). *)
From V Require Import lib.Base model.Async.
From Coq Require Import String Relation_Operators.
Open Scope Z_scope.

Lemma expired_at_spec tt t : expired_at tt t = true <-> finite tt = true /\ tmax tt <= t.
Proof. unfold expired_at, timeout_expired. now rewrite andb_true_iff, Z.geb_le. Qed.

Lemma expired_mono tt t t' : t <= t' -> expired_at tt t = true -> expired_at tt t' = true.
Proof. rewrite !expired_at_spec. intros H (F & E). split; [exact F|lia]. Qed.

Lemma not_expired_before tt t : finite tt = true -> expired_at tt t = false -> t < tmax tt.
Proof.
  intros F X. destruct (Z.lt_ge_cases t (tmax tt)) as [L|L]; [exact L|].
  rewrite (proj2 (expired_at_spec tt t) (conj F L)) in X. discriminate.
Qed.

Lemma mk_timeout_finite now t : finite (mk_timeout now t) = true <-> exists z, t = Some z /\ 0 <= z.
Proof.
  destruct t as [z|]; cbn; [rewrite Z.geb_le|]; split.
  - intros H. now exists z.
  - now intros (z' & [= <-] & H).
  - discriminate.
  - now intros (z & [=] & _).
Qed.

Lemma mk_timeout_tmax now z : 0 <= z -> tmax (mk_timeout now (Some z)) = now + z.
Proof. intros H. cbn. now rewrite (proj2 (Z.geb_le z 0) H). Qed.

Lemma mk_timeout_none_never now t : expired_at (mk_timeout now None) t = false.
Proof. reflexivity. Qed.
Lemma mk_timeout_expired now z t : expired_at (mk_timeout now (Some z)) t = (0 <=? z) && (now + z <=? t).
Proof. unfold expired_at, timeout_expired. cbn. rewrite !Z.geb_leb. now destruct (0 <=? z). Qed.

(* how long the dispatch of a message keeps the thread: serving a request, or materialising a reply's value *)
Definition dur (m : msg) : Z := match m with Traffic d | Stray d => Z.of_N d | Reply _ _ u => Z.of_N u end.
Lemma dur_nonneg m : 0 <= dur m.
Proof. destruct m; apply N2Z.is_nonneg. Qed.

Definition quiet (cbs : list (N * bool)) : Prop := Forall (fun c => snd c = false) cbs.
Definition at_clock (t : Z) (cbs : list (N * bool)) : list (N * Z) := map (fun c => (fst c, t)) cbs.

Lemma run_all_log t cbs : fst (run_all t cbs) = at_clock t cbs.
Proof. induction cbs as [|[c r] l IH]; cbn; [reflexivity|]. destruct (run_all t l). cbn in *. now rewrite IH. Qed.
Lemma run_all_quiet t cbs : quiet cbs -> snd (run_all t cbs) = None.
Proof.
  induction 1 as [|[c r] l H _ IH]; cbn; [reflexivity|]. destruct (run_all t l). cbn in *. subst. reflexivity.
Qed.
Lemma run_until_quiet t cbs : quiet cbs -> run_until t cbs = (at_clock t cbs, None).
Proof.
  induction 1 as [|[c r] l H _ IH]; cbn; [reflexivity|]. cbn in H. subst. now rewrite IH.
Qed.

(* the callbacks waiting in w are harmless for the loop of __call__ *)
Definition cb_ok (w : world) : Prop := iso w = true \/ quiet (callbacks (res w)).

Lemma ar_call_spec w e v :
  if ar_expired (res w) (now w) then ar_call w e v = (w, None)
  else exists l left x,
    ar_call w e v = (set_got (set_log (set_res w {| ready := true; is_exc := e; obj := v; callbacks := left; ttl := ttl (res w) |})
                                      (log w ++ l)) (now w), x) /\
    (cb_ok w -> l = at_clock (now w) (callbacks (res w)) /\ left = []).
Proof.
  unfold ar_call, cb_ok. destruct (ar_expired (res w) (now w)); [reflexivity|]. destruct (iso w).
  - destruct (run_all (now w) (callbacks (res w))) as [l x] eqn:R. exists l, [], x. split; [reflexivity|].
    intros _. now rewrite <- run_all_log, R.
  - destruct (run_until (now w) (callbacks (res w))) as [l x] eqn:R. eexists l, _, x. split; [reflexivity|].
    intros [H|H]; [discriminate|]. rewrite (run_until_quiet _ _ H) in R. now injection R as <- <-.
Qed.

Definition is_reply (m : msg) : bool := match m with Reply _ _ _ => true | _ => false end.

(* the awaited reply is judged at the clock at which its value has been materialised *)
Inductive dispatched (w : world) (r : Z) (m : msg) : world * option N -> Prop :=
| d_other : registered w && is_reply m = false ->
    dispatched w r m (add_disp (set_now w (now w + dur m)) (r, now w, now w + dur m, m), None)
| d_late e v u : m = Reply e v u -> registered w = true -> ar_expired (res w) (now w + dur m) = true ->
    dispatched w r m (add_disp (set_registered (set_now w (now w + dur m)) false) (r, now w, now w + dur m, m), None)
| d_timely e v u l left x : m = Reply e v u -> registered w = true -> ar_expired (res w) (now w + dur m) = false ->
    (cb_ok w -> l = at_clock (now w + dur m) (callbacks (res w)) /\ left = []) ->
    dispatched w r m
      (add_disp (set_got (set_log (set_res (set_registered (set_now w (now w + dur m)) false)
                                           {| ready := true; is_exc := e; obj := v; callbacks := left; ttl := ttl (res w) |})
                                  (log w ++ l)) (now w + dur m))
                (r, now w, now w + dur m, m), x).

Lemma dispatch_spec w r m : dispatched w r m (dispatch w r m).
Proof.
  unfold dispatch. destruct m as [e v u|d|d]; [|apply d_other, andb_false_r..].
  destruct (registered w) eqn:R; [|now apply d_other; rewrite R].
  pose proof (ar_call_spec (set_registered (set_now w (now w + Z.of_N u)) false) e v) as H.
  change (ar_expired _ _) with (ar_expired (res w) (now w + Z.of_N u)) in H. destruct (ar_expired (res w) (now w + Z.of_N u)) eqn:X.
  - rewrite H. exact (d_late w r (Reply e v u) e v u eq_refl R X).
  - destruct H as (l & left & x & -> & H).
    (* the fields computed first: left to itself the kernel takes half a second over this conversion *)
    cbn [now set_got set_log set_res set_registered set_now log res ttl].
    exact (d_timely w r (Reply e v u) e v u l left x eq_refl R X H).
Qed.

Lemma dispatch_frame w r m :
  let w' := fst (dispatch w r m) in
  now w' = now w + dur m /\ queue w' = queue w /\ tie w' = tie w /\ iso w' = iso w /\ atom w' = atom w /\ pend w' = pend w /\
  g_regs w' = g_regs w /\ ttl (res w') = ttl (res w) /\ g_disp w' = g_disp w ++ [(r, now w, now w + dur m, m)].
Proof. destruct (dispatch_spec w r m); cbn; repeat split. Qed.

Lemma dispatch_exc_ready w r m c : snd (dispatch w r m) = Some c -> ready (res (fst (dispatch w r m))) = true.
Proof. now destruct (dispatch_spec w r m). Qed.

Lemma set_now_id w : set_now w (now w) = w.
Proof. now destruct w. Qed.

(* receiving the head frame (_, c, m), first seen at t, and dispatching it *)
Definition recv (w : world) (t c : Z) (m : msg) (q : list (Z * Z * msg)) : world * option N :=
  dispatch (set_queue (set_now w (Z.max t c)) q) t m.
Definition res_of_exc (x : option N) : pollres := match x with Some c => PExc c | None => PData end.
Definition received (w : world) (t c : Z) (m : msg) (q : list (Z * Z * msg)) : world * pollres :=
  (fst (recv w t c m q), res_of_exc (snd (recv w t c m q))).
Lemma recv_spec w t c m q : dispatched (set_queue (set_now w (Z.max t c)) q) t m (recv w t c m q).
Proof. apply dispatch_spec. Qed.
Lemma recv_frame w t c m q : let w' := fst (recv w t c m q) in
  g_disp w' = g_disp w ++ [(t, Z.max t c, Z.max t c + dur m, m)] /\ now w' = Z.max t c + dur m /\ queue w' = q /\
  tie w' = tie w /\ ttl (res w') = ttl (res w).
Proof.
  destruct (dispatch_frame (set_queue (set_now w (Z.max t c)) q) t m) as (N & Q & T & _ & _ & _ & _ & TT & G). now repeat split.
Qed.

(* poll saw the head frame's first byte at t ([k] says what happens next), or came back empty-handed at the deadline, or
   never comes back *)
Inductive polled (tt : timeout) (w : world) (k : Z -> Z -> msg -> list (Z * Z * msg) -> world * pollres) : world * pollres -> Prop :=
| p_data a c m q t : queue w = (a, c, m) :: q -> t = Z.max (now w) a ->
    (finite tt = true -> now w < tmax tt -> t < tmax tt \/ (tie w = true /\ t = tmax tt)) ->
    polled tt w k (k t c m q)
| p_nothing : finite tt = true -> polled tt w k (set_now w (Z.max (now w) (tmax tt)), PNothing)
| p_hang : finite tt = false -> queue w = [] -> polled tt w k (w, PHang).

Lemma chan_poll_spec tt w : polled tt w (fun t _ _ _ => (set_now w t, PData)) (chan_poll tt w).
Proof.
  assert (now w + Z.max 0 (tmax tt - now w) = Z.max (now w) (tmax tt)) as E by lia.
  unfold chan_poll, timeleft, timeout_timeleft. destruct (queue w) as [|[[a c] m] q] eqn:Q.
  - destruct (finite tt) eqn:F; [|now apply p_hang]. rewrite E. now apply p_nothing.
  - pose proof (fun t => p_data tt w (fun t _ _ _ => (set_now w t, PData)) a c m q t Q) as D. cbn beta in D.
    destruct (Z.leb_spec a (now w)).
    { rewrite <- (set_now_id w) at 2. apply D; lia. }
    destruct (finite tt) eqn:F; [|apply D; [lia|discriminate]].
    rewrite E. destruct (Z.ltb_spec a (Z.max (now w) (tmax tt))); [apply D; lia|].
    destruct ((a =? Z.max (now w) (tmax tt)) && tie w) eqn:T; cbn [orb]; [|now apply p_nothing].
    apply andb_prop in T as (T1 & T2). apply Z.eqb_eq in T1. apply D; [lia|]. intros _ L. right. split; [exact T2|lia].
Qed.

Lemma serve_spec tt w : polled tt w (received w) (serve_tt tt w).
Proof.
  unfold serve_tt. destruct (chan_poll_spec tt w) as [a c m q t Q Ht B|F|F Q].
  - cbn [queue set_now now]. rewrite Q. change (set_now (set_now w t) (Z.max t c)) with (set_now w (Z.max t c)).
    generalize (p_data tt w (received w) a c m q t Q Ht B). unfold received, recv.
    now destruct (dispatch (set_queue (set_now w (Z.max t c)) q) t m) as [w2 [cb|]].
  - now apply p_nothing.
  - now apply p_hang.
Qed.

(* what histories are made of: the serving thread's two moves ... *)
Inductive busy (w : world) : world -> Prop :=
| b_now t : now w <= t -> busy w (set_now w t)
| b_recv a c m q t : queue w = (a, c, m) :: q -> t = Z.max (now w) a -> busy w (fst (recv w t c m q)).
(* ... and the caller's own; [x]: set_expiry is among them *)
Inductive move (x : Prop) (w : world) : world -> Prop :=
| mv_busy w' : busy w w' -> move x w w'
| mv_call c : ready (res w) = true -> move x w (set_log (add_reg w (c, now w)) (log w ++ [(c, now w)]))
| mv_append c r : move x w (ar_append_callback w c r)
| mv_pend p : move x w (set_pend w p)
| mv_expiry t : x -> move x w (ar_set_expiry w t).
Lemma ar_add_callback_spec w c r :
  ar_add_callback w c r = if ready (res w) then (set_log (add_reg w (c, now w)) (log w ++ [(c, now w)]), if r then Some c else None)
                          else (ar_append_callback w c r, None).
Proof. reflexivity. Qed.
Lemma move_add x w c r : move x w (fst (ar_add_callback w c r)).
Proof. rewrite ar_add_callback_spec. destruct (ready (res w)) eqn:R; [exact (mv_call x w c R)|apply mv_append]. Qed.

Definition serving := clos_refl_trans world busy.
Definition moves (x : Prop) := clos_refl_trans world (move x).

Lemma clos_rt_inv {A} (R : A -> A -> Prop) (P : A -> Prop) :
  (forall a b, R a b -> P a -> P b) -> forall a b, clos_refl_trans A R a b -> P a -> P b.
Proof. intros H a b S. induction S; eauto. Qed.

Lemma serving_moves x w w' : serving w w' -> moves x w w'.
Proof. induction 1; [apply rt_step, mv_busy; assumption|apply rt_refl|eapply rt_trans; eassumption]. Qed.

Lemma serve_serving tt w : serving w (fst (serve_tt tt w)).
Proof.
  destruct (serve_spec tt w) as [a c m q t Q Ht _|_|_ _].
  - apply rt_step. exact (b_recv w a c m q t Q Ht).
  - apply rt_step, b_now. lia.
  - apply rt_refl.
Qed.

Lemma q_ready_serving w : serving w (fst (q_ready w)).
Proof.
  unfold q_ready, poll_all0. destruct (ready (res w)); [apply rt_refl|]. destruct (expired_at _ _); [apply rt_refl|].
  generalize (serve_serving (mk_timeout (now w) (Some 0)) w). now destruct (serve_tt _ w) as [w' []].
Qed.

Lemma wait_loop_ready fuel w : ready (res w) = true -> wait_loop fuel w = (w, ONone).
Proof. intros R. destruct fuel; cbn [wait_loop]; now rewrite R. Qed.
Lemma wait_loop_expired fuel w : ready (res w) = false -> expired_at (ttl (res w)) (now w) = true -> wait_loop fuel w = (w, OTimeout).
Proof. intros R X. destruct fuel; cbn [wait_loop]; now rewrite R, X. Qed.
Lemma wait_loop_fuel w : ready (res w) = false -> expired_at (ttl (res w)) (now w) = false -> wait_loop 0 w = (w, OFuel).
Proof. intros R X. cbn [wait_loop]. now rewrite R, X. Qed.
Lemma wait_loop_serve f w : ready (res w) = false -> expired_at (ttl (res w)) (now w) = false ->
  wait_loop (S f) w = match serve_tt (ttl (res w)) w with
                      | (w', PHang) => (w', OHang)
                      | (w', PExc c) => (w', OCbExc c)
                      | (w', _) => wait_loop f w'
                      end.
Proof. intros R X. cbn [wait_loop]. now rewrite R, X. Qed.

Lemma wait_serving fuel : forall w, serving w (fst (wait_loop fuel w)).
Proof.
  induction fuel as [|f IH]; intros w; destruct (ready (res w)) eqn:R; try (rewrite (wait_loop_ready _ w R); apply rt_refl);
    destruct (expired_at (ttl (res w)) (now w)) eqn:X; try (rewrite (wait_loop_expired _ w R X); apply rt_refl).
  - rewrite (wait_loop_fuel w R X). apply rt_refl.
  - rewrite (wait_loop_serve f w R X). generalize (serve_serving (ttl (res w)) w).
    destruct (serve_tt _ w) as [w' []]; cbn [fst]; try exact id; intros S; exact (rt_trans _ _ _ _ _ S (IH w')).
Qed.

Definition is_reg_act (a : action) : bool :=
  match a with AddCb _ _ | AddCbTest _ _ | AddCbCommit | SetExpiry _ => true | _ => false end.
Definition is_set_expiry (a : action) : bool := match a with SetExpiry _ => true | _ => false end.
Definition no_set_expiry (acts : list action) : Prop := forallb (fun a => negb (is_set_expiry a)) acts = true.

Lemma step_serving w a : is_reg_act a = false -> serving w (fst (step w a)).
Proof.
  destruct a; try discriminate; intros _; cbn [step].
  - apply rt_step, b_now. pose proof (N2Z.is_nonneg d). cbn [fst]. lia.
  - apply q_ready_serving.
  - unfold q_error. generalize (q_ready_serving w). now destruct (q_ready w) as [w' []].
  - apply rt_refl.
  - unfold q_value, ar_wait. generalize (wait_serving (wait_fuel w) w). now destruct (wait_loop _ w) as [w' []].
  - apply wait_serving.
  - generalize (serve_serving (mk_timeout (now w) t) w). now destruct (serve_tt _ w) as [w' []].
Qed.

Lemma fst_let {A B C} (p : A * B) (f : B -> C) : fst (let (a, b) := p in (a, f b)) = fst p.
Proof. now destruct p. Qed.

Lemma step_moves (x : Prop) w a : x \/ is_set_expiry a = false -> moves x w (fst (step w a)).
Proof.
  intros X. destruct (is_reg_act a) eqn:R; [|now apply serving_moves, step_serving].
  pose proof (fun w c r => rt_step _ _ _ _ (move_add x w c r)) as Add. pose proof (fun w p => rt_step _ _ _ _ (mv_pend x w p)) as Pend.
  destruct a as [| |c r| |t| | | | | |]; try discriminate R; cbn [step].
  - (* AddCb *) rewrite fst_let. apply Add.
  - (* AddCbTest *) destruct (pend w); [apply rt_refl|]. destruct (atom w); [apply Pend|]. destruct (ready (res w)); [|apply Pend].
    rewrite fst_let. apply Add.
  - (* AddCbCommit *) destruct (pend w) as [[c r]|]; [|apply rt_refl]. apply (rt_trans _ _ _ _ _ (Pend w None)).
    destruct (atom w); [rewrite fst_let; apply Add|apply rt_step, mv_append].
  - (* SetExpiry *) destruct X as [X|X]; [apply rt_step, mv_expiry, X|discriminate].
Qed.

Lemma run_moves (x : Prop) acts : forall w, x \/ no_set_expiry acts -> moves x w (run_w w acts).
Proof.
  unfold run_w, no_set_expiry. induction acts as [|a rest IH]; intros w X; cbn [fold_left forallb] in *; [apply rt_refl|].
  rewrite andb_true_iff, negb_true_iff in X. apply (rt_trans _ _ _ (fst (step w a))); [apply step_moves|apply IH]; tauto.
Qed.

Lemma run_inv (x : Prop) (P : world -> Prop) : (forall w w', move x w w' -> P w -> P w') ->
  forall acts w, x \/ no_set_expiry acts -> P w -> P (run_w w acts).
Proof. intros H acts w X. apply (clos_rt_inv _ _ H), run_moves, X. Qed.

Lemma run_hist_run_w acts : forall w, fst (run_hist w acts) = run_w w acts.
Proof.
  unfold run_w. induction acts as [|a rest IH]; intros w; cbn [run_hist fold_left]; [reflexivity|].
  destruct (step w a) as [w1 o]. specialize (IH w1). now destruct (run_hist w1 rest).
Qed.

Record framed (w w' : world) : Prop := {
  fr_now : now w <= now w'; fr_iso : iso w' = iso w; fr_atom : atom w' = atom w;
  fr_pend : pend w' = pend w; fr_regs : g_regs w' = g_regs w; fr_ttl : ttl (res w') = ttl (res w)
}.
Lemma serving_framed w w' : serving w w' -> framed w w'.
Proof.
  induction 1 as [w w' [t H|a c m q t Q Ht]|w|w w1 w' _ [N1 I1 A1 P1 G1 TT1] _ [N2 I2 A2 P2 G2 TT2]].
  - now split.
  - destruct (dispatch_frame (set_queue (set_now w (Z.max t c)) q) t m) as (N & _ & _ & I & A & P & G & TT & _).
    pose proof (dur_nonneg m). unfold recv. split; rewrite ?N, ?I, ?A, ?P, ?G, ?TT; cbn; auto. lia.
  - split; auto. lia.
  - split; try congruence. lia.
Qed.

Lemma serve_now_le tt w w' r : serve_tt tt w = (w', r) -> now w <= now w'.
Proof. intros H. pose proof (fr_now _ _ (serving_framed _ _ (serve_serving tt w))) as F. now rewrite H in F. Qed.

Lemma step_flags w a : iso (fst (step w a)) = iso w /\ atom (fst (step w a)) = atom w.
Proof.
  refine (clos_rt_inv _ (fun w' => iso w' = iso w /\ atom w' = atom w) _ _ _ (step_moves True w a (or_introl I)) (conj eq_refl eq_refl)).
  intros u v [w1 B|c R|c r|p|t X] (<- & <-); try now cbn.
  split; [apply fr_iso|apply fr_atom]; apply serving_framed, rt_step, B.
Qed.

(* a ready result is no longer registered with the connection: a second reply cannot reach it *)
Definition inv0 (w : world) : Prop := ready (res w) = true -> registered w = false.
Lemma inv0_move x w w' : move x w w' -> inv0 w -> inv0 w'.
Proof.
  unfold inv0. intros [w1 [t H|a c m q t Q Ht]|c R|c r|p|t X] I; cbn; auto.
  destruct (recv_spec w t c m q); cbn; auto.
Qed.

(* the result has its value and the connection has let go of it *)
Definition has_value (e : bool) (v : Z) (w : world) : Prop :=
  ready (res w) = true /\ is_exc (res w) = e /\ obj (res w) = v /\ registered w = false.
Lemma has_value_move x e v w w' : move x w w' -> has_value e v w -> has_value e v w'.
Proof.
  unfold has_value. intros [w1 [t H|a c m q t Q Ht]|c R|c r|p|t X] (A & B & C & D); cbn; auto.
  destruct (recv_spec w t c m q) as [O|? ? ? _ R _|? ? ? ? ? ? _ R _ _]; cbn in *; [auto|congruence..].
Qed.

Lemma outcome_of_iff w o :
  outcome_of w = o <-> match o with
                       | Got e v => ready (res w) = true /\ is_exc (res w) = e /\ obj (res w) = v
                       | Expired => ready (res w) = false /\ expired_at (ttl (res w)) (now w) = true
                       | Pending => ready (res w) = false /\ expired_at (ttl (res w)) (now w) = false
                       end.
Proof. unfold outcome_of. destruct o, (ready (res w)), (expired_at (ttl (res w)) (now w)); intuition congruence. Qed.
Lemma outcome_pending w : outcome_of w = Pending <-> ready (res w) = false /\ expired_at (ttl (res w)) (now w) = false.
Proof. exact (outcome_of_iff w Pending). Qed.

Theorem got_final w e v acts : inv0 w -> outcome_of w = Got e v -> outcome_of (run_w w acts) = Got e v.
Proof.
  intros J H. apply (outcome_of_iff w (Got e v)) in H as (A & B & C). apply (outcome_of_iff _ (Got e v)).
  destruct (run_inv True _ (has_value_move True e v) acts w) as (X & Y & Z & _); [now left| |]; repeat split; auto.
Qed.

(* an expired result (expiry tt passed by clock t) as it was left: nothing ran since, nothing was stored *)
Definition dead (tt : timeout) (l : list (N * Z)) (e : bool) (v : Z) (t : Z) (w : world) : Prop :=
  ready (res w) = false /\ ttl (res w) = tt /\ log w = l /\ is_exc (res w) = e /\ obj (res w) = v /\ t <= now w.

Lemma dead_move tt l e v t : expired_at tt t = true -> forall w w', move False w w' -> dead tt l e v t w -> dead tt l e v t w'.
Proof.
  unfold dead. intros X w w' [w1 [t1 H|a c m q t1 Q Ht]|c R|c r|p|t1 []] (A & B & C & D & E & F); cbn; try tauto.
  - repeat split; auto. lia.
  - pose proof (dur_nonneg m).
    destruct (recv_spec w t1 c m q) as [O|? ? ? _ R _|? ? ? ? ? ? _ R Y _]; cbn in *; [repeat split; auto; lia..|].
    unfold ar_expired in Y. rewrite A, B, (expired_mono tt t) in Y; [discriminate|lia|exact X].
  - congruence.
Qed.

(* the dispatch of the first reply: (clock its frame was complete, clock its value had been materialised, exception?, value) *)
Fixpoint first_reply (d : list (Z * Z * Z * msg)) : option (Z * Z * bool * Z) :=
  match d with
  | [] => None
  | (_, rc, t, Reply e v _) :: _ => Some (rc, t, e, v)
  | _ :: r => first_reply r
  end.
Lemma first_reply_app d x : first_reply (d ++ [x]) = match first_reply d with Some s => Some s | None => first_reply [x] end.
Proof. induction d as [|[[[r rc] t] [e v u|n|]] d IH]; cbn [app first_reply]; auto. Qed.

(* what the dispatch log says of a result with expiry tt: no reply dispatched yet -- still awaited and pending; otherwise
   the first one, decided at t: ready with its value if tt had not expired at t, pending for ever if it had *)
Definition chr (tt : timeout) (w : world) : Prop :=
  ttl (res w) = tt /\
  match first_reply (g_disp w) with
  | None => registered w = true /\ ready (res w) = false
  | Some (_, t, e, v) => registered w = false /\ t <= now w /\
      if expired_at tt t then ready (res w) = false
      else ready (res w) = true /\ is_exc (res w) = e /\ obj (res w) = v /\ g_got w = Some t
  end.

Lemma chr_move tt w w' : move False w w' -> chr tt w -> chr tt w'.
Proof.
  unfold chr. intros [w1 [t1 H|a c m q t1 Q Ht]|c R|c r|p|t1 []] (A & B); cbn; auto.
  - split; [exact A|]. destruct (first_reply (g_disp w)) as [[[[rc t] e] v]|]; [|exact B].
    destruct B as (B1 & B2 & B3). repeat split; auto. lia.
  - (* a reply was dispatched before: the connection has dropped the callback, nothing changes; none was: a reply now is
       the awaited one, and decides *)
    pose proof (dur_nonneg m).
    destruct (recv_spec w t1 c m q) as [O|e v u -> R X|e v u l left x -> R X _]; cbn in *; rewrite first_reply_app;
      (split; [exact A|]); destruct (first_reply (g_disp w)) as [[[[rc t] e'] v']|]; try (destruct B as (B1 & _); congruence).
    + destruct B as (B1 & B2 & B3). repeat split; auto. lia.
    + rewrite (proj1 B) in O. destruct m; [discriminate|exact B..].
    + unfold ar_expired in X. rewrite (proj2 B), A in X. cbn in *. rewrite X. repeat split; [lia|apply B].
    + unfold ar_expired in X. rewrite (proj2 B), A in X. cbn in *. rewrite X. repeat split. lia.
Qed.

Theorem outcome_first_of_decision_and_expiry tt acts w : no_set_expiry acts -> chr tt w ->
  let w' := run_w w acts in
  outcome_of w' = match first_reply (g_disp w') with
                  | Some (_, t, e, v) => if expired_at tt t then Expired else Got e v
                  | None => if expired_at tt (now w') then Expired else Pending
                  end.
Proof.
  intros N C. cbn zeta. destruct (run_inv False _ (chr_move tt) acts w (or_intror N) C) as (A & B). unfold outcome_of. rewrite A.
  destruct (first_reply (g_disp (run_w w acts))) as [[[[rc t] e] v]|].
  - destruct B as (_ & B2 & B3). destruct (expired_at tt t) eqn:X.
    + rewrite B3. now rewrite (expired_mono tt t _ B2 X).
    + destruct B3 as (-> & -> & -> & _). reflexivity.
  - destruct B as (_ & ->). reflexivity.
Qed.

Definition instant (m : msg) : Prop := match m with Reply _ _ u => u = 0%N | _ => True end.
Definition instant_replies (q : list (Z * Z * msg)) : Prop := Forall (fun x => instant (snd x)) q.
Definition whole_frames (q : list (Z * Z * msg)) : Prop := Forall (fun x => snd (fst x) <= fst (fst x)) q.

(* the end of every dispatch is "frame complete" + duration *)
Definition disp_sound (w : world) : Prop :=
  Forall (fun d => let '(r, rc, t, m) := d in t = rc + dur m /\ r <= rc) (g_disp w).
(* no reply takes time to be materialised: the scripted ones by hypothesis, hence every dispatched one was decided at
   the clock at which its frame was complete *)
Definition prompt (w : world) : Prop :=
  instant_replies (queue w) /\ Forall (fun d => let '(_, rc, t, m) := d in is_reply m = true -> t = rc) (g_disp w).

Lemma prompt_move x w w' : move x w w' -> prompt w -> prompt w'.
Proof.
  unfold prompt, instant_replies. intros [w1 [t H|a c m q t Q Ht]|c R|c r|p|t X] (I1 & I2); cbn; auto.
  destruct (recv_frame w t c m q) as (-> & _ & -> & _). rewrite Q in I1. inversion I1 as [|? ? Hm Hq]; subst. split; [exact Hq|].
  apply Forall_app. split; [exact I2|]. constructor; [|constructor].
  destruct m; [|discriminate..]. cbn in *. subst. intros _. apply Z.add_0_r.
Qed.

Lemma first_reply_in d rc t e v : first_reply d = Some (rc, t, e, v) -> exists r u, In (r, rc, t, Reply e v u) d.
Proof.
  induction d as [|[[[r rc'] t'] [e' v' u|n|]] d IH]; cbn [first_reply]; try discriminate.
  - intros [= <- <- <- <-]. exists r, u. now left.
  - intros H. destruct (IH H) as (r0 & u0 & I). exists r0, u0. now right.
  - intros H. destruct (IH H) as (r0 & u0 & I). exists r0, u0. now right.
Qed.

Theorem outcome_first_of_arrival_and_expiry tt acts w : no_set_expiry acts -> chr tt w -> prompt w ->
  let w' := run_w w acts in
  outcome_of w' = match first_reply (g_disp w') with
                  | Some (rc, _, e, v) => if expired_at tt rc then Expired else Got e v
                  | None => if expired_at tt (now w') then Expired else Pending
                  end.
Proof.
  intros N C P. cbn zeta. rewrite (outcome_first_of_decision_and_expiry tt acts w N C).
  destruct (first_reply (g_disp (run_w w acts))) as [[[[rc t] e] v]|] eqn:F; [|reflexivity].
  destruct (first_reply_in _ _ _ _ _ F) as (r & u & I).
  destruct (run_inv False _ (prompt_move False) acts w (or_intror N) P) as (_ & P').
  rewrite Forall_forall in P'. now rewrite (P' _ I eq_refl).
Qed.

Definition cb_times (tg : Z) (regs : list (N * Z)) : list (N * Z) := map (fun r => (fst r, Z.max (snd r) tg)) regs.

(* the callback bookkeeping.  Pending: nothing has run, the waiting callbacks are the registrations.  Ready since tg: none
   waits, each registration ran once at max(its clock, tg).  The other clauses are what keeps it so: registrations lie in
   the past, the waiting callbacks and a parked registration cannot break the loop of __call__, and a registration is
   parked only where registering is atomic *)
Record inv (w : world) : Prop := {
  inv_pending : ready (res w) = false -> log w = [] /\ map fst (callbacks (res w)) = map fst (g_regs w) /\ g_got w = None;
  inv_ready : ready (res w) = true ->
              callbacks (res w) = [] /\ exists tg, g_got w = Some tg /\ tg <= now w /\ log w = cb_times tg (g_regs w);
  inv_regs : Forall (fun r => snd r <= now w) (g_regs w);
  inv_cbok : cb_ok w;
  inv_pend : atom w = true \/ pend w = None;
  inv_pendok : match pend w with Some (_, r) => iso w = true \/ r = false | None => True end
}.
(* what the callback clause is proved from: every fresh request has it, every [ok_acts] history keeps it *)
Definition good (w : world) : Prop := inv0 w /\ inv w.

(* the histories for which a tree with the facts i (callbacks isolated) and a (registration atomic) keeps the callback
   clauses: no raising callback unless i, no registration split across the arrival unless a *)
Definition ok_act (i a : bool) (x : action) : bool :=
  match x with
  | AddCb _ r => i || negb r
  | AddCbTest _ r => a && (i || negb r)
  | _ => true
  end.
Definition ok_acts (i a : bool) (acts : list action) : Prop := forallb (ok_act i a) acts = true.

Lemma cb_times_ids tg regs : map fst (cb_times tg regs) = map fst regs.
Proof. unfold cb_times. rewrite map_map. reflexivity. Qed.

Lemma regs_later t t' (regs : list (N * Z)) : t <= t' -> Forall (fun r => snd r <= t) regs -> Forall (fun r => snd r <= t') regs.
Proof. intros H. apply Forall_impl. intros r. lia. Qed.

Lemma inv_transfer w w' :
  res w' = res w -> log w' = log w -> g_regs w' = g_regs w -> g_got w' = g_got w -> now w <= now w' ->
  iso w' = iso w -> atom w' = atom w -> pend w' = pend w -> inv w -> inv w'.
Proof.
  intros R L G T N I A P [Ipending Iready Iregs Icbok Ipend Ipendok]. split; unfold cb_ok in *; rewrite ?R, ?L, ?G, ?T, ?I, ?A, ?P; auto.
  - intros H. destruct (Iready H) as (X & tg & B & C & D). split; [exact X|]. exists tg. repeat split; auto. lia.
  - exact (regs_later _ _ _ N Iregs).
Qed.

Lemma cb_times_now regs (cbs : list (N * bool)) t : Forall (fun r => snd r <= t) regs -> map fst cbs = map fst regs ->
  at_clock t cbs = cb_times t regs.
Proof.
  unfold cb_times, at_clock. revert cbs. induction regs as [|[c tr] l IH]; intros [|[c' r'] cbs] F E; try discriminate; [reflexivity|].
  injection E as -> E. inversion F as [|? ? H F']; subst. cbn in *. now rewrite (IH cbs F' E), Z.max_r.
Qed.

Lemma good_busy w w' : busy w w' -> good w -> good w'.
Proof.
  intros B (I0 & I). split; [exact (inv0_move True w w' (mv_busy _ _ _ B) I0)|]. destruct B as [t H|a c m q t Q Ht].
  { now apply (inv_transfer w). }
  pose proof (dur_nonneg m) as D.
  destruct (recv_spec w t c m q) as [O|e v u -> R X|e v u l left x -> R X K]; cbn in *; try (apply (inv_transfer w); cbn; auto; lia).
  (* the awaited reply, in time: every callback registered so far runs now *)
  assert (ready (res w) = false) as NR.
  { destruct (ready (res w)) eqn:Y; [|reflexivity]. rewrite (I0 Y) in R. discriminate. }
  destruct I as [Ipending _ Iregs Icbok Ipend Ipendok]. destruct (Ipending NR) as (L0 & CB & _). destruct (K Icbok) as (-> & ->).
  assert (Forall (fun r => snd r <= Z.max t c + Z.of_N u) (g_regs w)) as Iregs' by (apply (regs_later (now w)); [lia|exact Iregs]).
  split; cbn; auto.
  - discriminate.
  - intros _. split; [reflexivity|]. exists (Z.max t c + Z.of_N u). repeat split; [lia|]. rewrite L0. now apply cb_times_now.
  - right. constructor.
Qed.

Lemma good_add w c r : iso w = true \/ r = false -> good w -> good (fst (ar_add_callback w c r)).
Proof.
  intros OK (I0 & [Ipending Iready Iregs Icbok Ipend Ipendok]). split; [exact (inv0_move True w _ (move_add _ _ c r) I0)|].
  assert (Forall (fun x => snd x <= now w) (g_regs w ++ [(c, now w)])) as Iregs'.
  { apply Forall_app. split; [exact Iregs|]. constructor; [cbn; lia|constructor]. }
  rewrite ar_add_callback_spec. destruct (ready (res w)) eqn:R; split; unfold cb_ok in *; cbn; rewrite ?R; auto; try discriminate.
  - destruct (Iready eq_refl) as (A & tg & B & C & D). intros _. split; [exact A|]. exists tg. repeat split; auto.
    rewrite D. unfold cb_times. rewrite map_app. cbn. now rewrite Z.max_l.
  - destruct (Ipending eq_refl) as (A & B & C). intros _. repeat split; auto. now rewrite !map_app, B.
  - destruct Icbok as [Icbok|Icbok]; [now left|]. destruct OK as [OK|OK]; [now left|]. right. apply Forall_app. split; [exact Icbok|].
    constructor; [exact OK|constructor].
Qed.

Lemma good_pend w p : atom w = true \/ p = None -> match p with Some (_, r) => iso w = true \/ r = false | None => True end ->
  good w -> good (set_pend w p).
Proof. intros A B (I0 & [Ipending Iready Iregs Icbok Ipend Ipendok]). split; [exact I0|]. now split. Qed.

(* the registration sequence of a history: a split registration counts where it is committed *)
Fixpoint reg_ids (p : option N) (acts : list action) : list N :=
  match acts with
  | [] => []
  | AddCb c _ :: r => c :: reg_ids p r
  | AddCbTest c _ :: r => reg_ids (match p with Some _ => p | None => Some c end) r
  | AddCbCommit :: r => match p with Some c => c :: reg_ids None r | None => reg_ids None r end
  | _ :: r => reg_ids p r
  end.

(* the registrations made so far, then those the rest of the history will make: the same before and after every action *)
Definition regs_of (w : world) (acts : list action) : list N :=
  map fst (g_regs w) ++ reg_ids (option_map fst (pend w)) acts.

Lemma regs_of_add w c r rest :
  regs_of (fst (ar_add_callback w c r)) rest = map fst (g_regs w) ++ c :: reg_ids (option_map fst (pend w)) rest.
Proof. unfold regs_of. rewrite ar_add_callback_spec. destruct (ready (res w)); cbn; now rewrite map_app, <- app_assoc. Qed.

Lemma good_step w a rest : ok_act (iso w) (atom w) a = true -> good w ->
  good (fst (step w a)) /\ regs_of (fst (step w a)) rest = regs_of w (a :: rest).
Proof.
  intros OK G. destruct (is_reg_act a) eqn:RA.
  - assert (forall r, iso w || negb r = true -> iso w = true \/ r = false) as Ok by (destruct (iso w), r; auto).
    destruct a as [| |c r| |t| | | | | |]; try discriminate RA; cbn [step] in *.
    + (* AddCb *) rewrite fst_let, regs_of_add. split; [|reflexivity]. apply good_add; auto.
    + (* AddCbTest *) apply andb_prop in OK as (At & OK). destruct (pend w) as [p|] eqn:P.
      * split; [exact G|]. unfold regs_of. cbn. now rewrite P.
      * rewrite At. split; [apply good_pend; auto|]. unfold regs_of. cbn. now rewrite P.
    + (* AddCbCommit *) destruct (pend w) as [[c r]|] eqn:P; [|split; [exact G|unfold regs_of; cbn; now rewrite P]].
      pose proof G as (_ & [_ _ _ _ [At|Pn] Ipendok]); [|congruence]. rewrite P in Ipendok.
      rewrite At, fst_let, regs_of_add. unfold regs_of. rewrite P.
      split; [|reflexivity]. apply good_add; [exact Ipendok|]. apply good_pend; [now right|exact I|exact G].
    + (* SetExpiry *) destruct G as (I0 & [Ipending Iready Iregs Icbok Ipend Ipendok]). split; [|reflexivity]. split; [exact I0|]. now split.
  - pose proof (step_serving w a RA) as S. split; [exact (clos_rt_inv _ _ good_busy _ _ S G)|].
    unfold regs_of. rewrite (fr_pend _ _ (serving_framed _ _ S)), (fr_regs _ _ (serving_framed _ _ S)). now destruct a.
Qed.

Lemma good_run acts : forall w, ok_acts (iso w) (atom w) acts -> good w ->
  good (run_w w acts) /\ map fst (g_regs (run_w w acts)) = regs_of w acts.
Proof.
  unfold run_w, ok_acts. induction acts as [|a rest IH]; intros w OK G; cbn [fold_left].
  - split; [exact G|]. unfold regs_of. now rewrite app_nil_r.
  - cbn in OK. apply andb_prop in OK as (Oa & OK). destruct (step_flags w a) as (Fi & Fa).
    destruct (good_step w a rest Oa G) as (G1 & <-). apply IH; [now rewrite Fi, Fa|exact G1].
Qed.

Theorem callbacks_once_in_order w acts : good w -> g_regs w = [] -> pend w = None -> ok_acts (iso w) (atom w) acts ->
  let w' := run_w w acts in
  map fst (g_regs w') = reg_ids None acts /\
  match outcome_of w' with
  | Got _ _ => exists tg, g_got w' = Some tg /\ log w' = cb_times tg (g_regs w') /\
                          map fst (log w') = reg_ids None acts /\ callbacks (res w') = []
  | _ => log w' = [] /\ map fst (callbacks (res w')) = reg_ids None acts
  end.
Proof.
  intros G Gr Pn OK. cbn zeta. destruct (good_run acts w OK G) as ((_ & [Ipending Iready _ _ _ _]) & RR).
  unfold regs_of in RR. rewrite Gr, Pn in RR. split; [exact RR|]. unfold outcome_of.
  destruct (ready (res (run_w w acts))).
  - destruct (Iready eq_refl) as (A & tg & B & _ & D). exists tg. now rewrite D, cb_times_ids.
  - destruct (Ipending eq_refl) as (A & B & _). rewrite B, RR. now destruct (expired_at _ _).
Qed.

(* the clock at which the last of the dispatches ds ended; d if there was none *)
Definition last_end (ds : list (Z * Z * Z * msg)) (d : Z) : Z := fold_left (fun _ x => snd (fst x)) ds d.

(* a dispatch performed by a wait that started at t0 with expiry tm on a stream scripted q0: first byte seen at r in
   [t0, tm] (tm itself only when the stream reports data arriving exactly at the deadline), frame complete at rc,
   dispatch over at e = rc + duration; the frame is one of the scripted ones *)
Definition disp_ok (q0 : list (Z * Z * msg)) (t0 tm : Z) (tb : bool) (x : Z * Z * Z * msg) : Prop :=
  let '(r, rc, e, m) := x in
  t0 <= r /\ (r < tm \/ (tb = true /\ r = tm)) /\ e = rc + dur m /\ exists a c, In (a, c, m) q0 /\ a <= r /\ rc = Z.max r c.

Lemma disp_ok_weaken q0 q1 t0 t1 tm tb x : incl q1 q0 -> t0 <= t1 -> disp_ok q1 t1 tm tb x -> disp_ok q0 t0 tm tb x.
Proof.
  destruct x as [[[r rc] e] m]. unfold disp_ok. intros I L (A & B & C & a & c & D & E & F).
  repeat split; auto; [lia|]. exists a, c. repeat split; auto.
Qed.

Lemma last_end_snoc ds x d : last_end (ds ++ [x]) d = snd (fst x).
Proof. unfold last_end. now rewrite fold_left_app. Qed.

Lemma last_dispatch_late q0 t0 tm tb ds : Forall (disp_ok q0 t0 tm tb) ds -> Z.max t0 tm < last_end ds t0 ->
  exists ds' r rc e m, ds = ds' ++ [(r, rc, e, m)] /\ last_end ds t0 = e /\ disp_ok q0 t0 tm tb (r, rc, e, m) /\
                       r <= tm /\ (tm < rc \/ 0 < dur m).
Proof.
  intros B L. destruct ds as [|[[[r rc] e] m] ds _] using rev_ind; [cbn in L; lia|]. rewrite last_end_snoc in *. cbn [fst snd] in *.
  apply Forall_app in B as (_ & B). apply Forall_inv in B. pose proof B as (_ & B2 & B3 & _).
  exists ds, r, rc, e, m. split; [reflexivity|]. split; [reflexivity|]. split; [exact B|]. split; lia.
Qed.

Lemma wait_loop_spec fuel : forall w, (List.length (queue w) < fuel)%nat -> finite (ttl (res w)) = true ->
  let tm := tmax (ttl (res w)) in
  let w' := fst (wait_loop fuel w) in
  exists ds, g_disp w' = g_disp w ++ ds /\ Forall (disp_ok (queue w) (now w) tm (tie w)) ds /\ now w <= last_end ds (now w) /\
    match snd (wait_loop fuel w) with
    | ONone | OCbExc _ => ready (res w') = true
    | OTimeout => ready (res w') = false /\ now w' = Z.max tm (last_end ds (now w))
    | _ => False
    end.
Proof.
  induction fuel as [|f IH]; intros w L F; [lia|]. cbn zeta. destruct (ready (res w)) eqn:R.
  { rewrite (wait_loop_ready _ w R). exists []. rewrite app_nil_r. cbn. repeat split; auto. lia. }
  destruct (expired_at (ttl (res w)) (now w)) eqn:X.
  { rewrite (wait_loop_expired _ w R X). apply expired_at_spec in X as (_ & X). exists []. rewrite app_nil_r. cbn.
    repeat split; auto; lia. }
  rewrite (wait_loop_serve f w R X). pose proof (not_expired_before _ _ F X) as LT.
  destruct (serve_spec (ttl (res w)) w) as [a c m q t Q Ht B|_|F' _].
  - specialize (B F LT). pose proof (dur_nonneg m) as D. unfold received.
    destruct (recv_frame w t c m q) as (G & N & Q1 & T1 & TT).
    assert (disp_ok (queue w) (now w) (tmax (ttl (res w))) (tie w) (t, Z.max t c, Z.max t c + dur m, m)) as OK.
    { repeat split; [lia|exact B|]. exists a, c. rewrite Q. repeat split; [now left|lia]. }
    destruct (snd (recv w t c m q)) as [cb|] eqn:X1; cbn [res_of_exc fst snd].
    + (* a callback of the accepted reply raised: its exception leaves wait, the result is ready *)
      exists [(t, Z.max t c, Z.max t c + dur m, m)]. repeat split; [exact G|now constructor|cbn; lia|].
      exact (dispatch_exc_ready _ _ _ cb X1).
    + rewrite Q in L. cbn in L. destruct (IH (fst (recv w t c m q))) as (ds & I1 & I2 & I3 & I4); [rewrite Q1; lia|now rewrite TT|].
      rewrite TT, N, Q1, T1 in *. exists ((t, Z.max t c, Z.max t c + dur m, m) :: ds).
      rewrite I1, G, <- app_assoc. change (last_end (_ :: ds) (now w)) with (last_end ds (Z.max t c + dur m)).
      split; [reflexivity|]. split; [|split; [lia|exact I4]].
      constructor; [exact OK|]. eapply Forall_impl; [|exact I2]. intros x. apply disp_ok_weaken; [|lia].
      rewrite Q. intros y Hy. now right.
  - (* nothing arrived before the deadline: the clock is at the expiry *)
    assert (expired_at (ttl (res w)) (Z.max (now w) (tmax (ttl (res w)))) = true) as X1
      by (apply expired_at_spec; split; [exact F|lia]).
    cbn [fst]. rewrite (wait_loop_expired f (set_now w _) R X1). exists []. rewrite app_nil_r. cbn. repeat split; auto; lia.
  - congruence.
Qed.

Lemma wait_loop_never fuel : forall w, finite (ttl (res w)) = false -> snd (wait_loop fuel w) <> OTimeout.
Proof.
  induction fuel as [|f IH]; intros w F; destruct (ready (res w)) eqn:R; try (rewrite (wait_loop_ready _ w R); discriminate);
    destruct (expired_at (ttl (res w)) (now w)) eqn:X; try (apply expired_at_spec in X as (X & _); congruence).
  - rewrite (wait_loop_fuel w R X). discriminate.
  - rewrite (wait_loop_serve f w R X). generalize (fr_ttl _ _ (serving_framed _ _ (serve_serving (ttl (res w)) w))).
    destruct (serve_tt (ttl (res w)) w) as [w1 r]. intros T. cbn [fst] in T. destruct r; try (apply IH; now rewrite T); discriminate.
Qed.

Definition mkargs e v c r t := {| a_exc := e; a_obj := v; a_func := c; a_raises := r; a_timeout := t |}.

Lemma exec_call w e v c r t :
  exec (call_prog (iso w)) (mkargs e v c r t) w = (fst (ar_call w e v), obs_of_exc (snd (ar_call w e v))).
Proof.
  unfold ar_call, exec.
  destruct (iso w); cbn [call_prog call_prog_current call_prog_repaired exec_l exec1 on_guard eval_guard];
    destruct (ar_expired (res w) (now w)); try reflexivity; cbn.
  - destruct (run_all (now w) (callbacks (res w))) as [lg [c0|]]; reflexivity.
  - destruct (run_until (now w) (callbacks (res w))) as [lg [c0|]]; reflexivity.
Qed.

Lemma q_ready_obs w : (exists b, snd (q_ready w) = OBool b) \/ (exists c, snd (q_ready w) = OCbExc c).
Proof.
  unfold q_ready. destruct (ready (res w)); [left; eexists; reflexivity|]. destruct (expired_at _ _); [left; eexists; reflexivity|].
  destruct (poll_all0 w) as [w' [c|]]; [right|left]; eexists; reflexivity.
Qed.

Lemma while_wait_loop fuel : forall w,
  (match while_serve fuel (GAnd (GNot GReady) (GNot GTtlExpired)) w with
   | (w', Some o) => (w', o)
   | (w', None) => if negb (ready (res w')) then (w', OTimeout) else (w', ONone)
   end) = wait_loop fuel w.
Proof.
  induction fuel as [|f IH]; intros w; cbn [while_serve wait_loop eval_guard]; destruct (ready (res w)) eqn:R; cbn [negb];
    try (rewrite R; reflexivity); destruct (expired_at (ttl (res w)) (now w)) eqn:X; cbn [negb]; try (rewrite R; reflexivity);
    try reflexivity.
  destruct (serve_tt (ttl (res w)) w) as [w1 r]. destruct r; try apply IH; reflexivity.
Qed.
Lemma exec_wait x w : exec wait_prog x w = ar_wait w.
Proof.
  unfold ar_wait, exec. rewrite <- while_wait_loop. cbn [exec_l wait_prog exec1].
  destruct (while_serve (wait_fuel w) _ w) as [w' [o|]]; [reflexivity|]. cbn [on_guard eval_guard]. destruct (ready (res w')); reflexivity.
Qed.
Lemma exec_add_callback w e v c r t :
  exec (add_callback_prog (atom w)) (mkargs e v c r t) w = (fst (ar_add_callback w c r), obs_of_exc (snd (ar_add_callback w c r))).
Proof. unfold ar_add_callback, exec. destruct (atom w); cbn; destruct (ready (res w)), r; reflexivity. Qed.
Lemma exec_set_expiry w e v c r t : fst (exec set_expiry_prog (mkargs e v c r t) w) = ar_set_expiry w t.
Proof. reflexivity. Qed.
Lemma exec_ready x w : exec ready_prog x w = q_ready w.
Proof.
  unfold q_ready, exec. cbn [exec_l ready_prog exec1 on_guard eval_guard]. destruct (ready (res w)); [reflexivity|].
  destruct (expired_at (ttl (res w)) (now w)); [reflexivity|]. destruct (poll_all0 w) as [w' [c|]]; reflexivity.
Qed.
Lemma exec_error x w : exec error_prog x w = q_error w.
Proof.
  unfold q_error, exec. cbn [exec_l error_prog exec1]. unfold on_guard. cbn [eval_guard].
  destruct (q_ready_obs w) as [(b & E)|(c & E)]; destruct (q_ready w) as [w' o]; cbn in E; subst o; [destruct b|]; reflexivity.
Qed.
Lemma exec_expired x w : exec expired_prog x w = (w, OBool (ar_expired (res w) (now w))).
Proof. unfold ar_expired, exec. cbn [exec_l expired_prog exec1]. unfold on_guard. cbn [eval_guard]. destruct (ready (res w)); reflexivity. Qed.
Lemma exec_value x w : exec value_prog x w = q_value w.
Proof.
  unfold q_value, exec. cbn [exec_l value_prog exec1]. destruct (ar_wait w) as [w' o]. destruct o; reflexivity.
Qed.

Lemma cexec_async_request cfg own sd t w :
  c_w (cexec cfg own sd async_request_prog {| c_w := w; c_timeout := t; c_ret := None |}) = async_request t sd w.
Proof. unfold async_request. destruct t; reflexivity. Qed.
Lemma cexec_sync_request cfg own sd t0 w :
  let f := cexec cfg own sd sync_request_prog {| c_w := w; c_timeout := t0; c_ret := None |} in
  (c_w f, c_ret f) = (fst (sync_request (cfg "sync_request_timeout"%string) sd w), Some (snd (sync_request (cfg "sync_request_timeout"%string) sd w))).
Proof.
  unfold sync_request. cbn [cexec sync_request_prog fold_left cexec1 c_w c_timeout c_ret].
  destruct (q_value (async_request (cfg "sync_request_timeout"%string) sd w)). reflexivity.
Qed.
Lemma cexec_timed_call cfg own sd t0 w :
  c_w (cexec cfg own sd timed_call_prog {| c_w := w; c_timeout := t0; c_ret := None |}) = timed_call own sd w.
Proof. reflexivity. Qed.
(* a synchronous operation on a proxy (netref.syncreq) is the connection's sync_request: it carries the configured timeout;
   an asynchronous one (netref.asyncreq) is async_request without a timeout *)
Lemma cexec_syncreq cfg own sd t0 w :
  let f := cexec cfg own sd syncreq_prog {| c_w := w; c_timeout := t0; c_ret := None |} in
  (c_w f, c_ret f) = (fst (sync_request (cfg "sync_request_timeout"%string) sd w), Some (snd (sync_request (cfg "sync_request_timeout"%string) sd w))).
Proof.
  cbn [cexec syncreq_prog fold_left cexec1 c_w c_timeout c_ret].
  destruct (sync_request (cfg "sync_request_timeout"%string) sd w). reflexivity.
Qed.
Lemma cexec_asyncreq cfg own sd t0 w :
  c_w (cexec cfg own sd asyncreq_prog {| c_w := w; c_timeout := t0; c_ret := None |}) = async_request None sd w.
Proof. reflexivity. Qed.

Lemma facts_current : isolated_of call_prog_current = false /\ atomic_of call_prog_current add_callback_prog_current = false.
Proof. split; reflexivity. Qed.
Lemma facts_repaired : isolated_of call_prog_repaired = true /\ atomic_of call_prog_repaired add_callback_prog_repaired = true.
Proof. split; reflexivity. Qed.

Lemma bound_reply_times_out c e v u : 0 <= c -> c <= Z.of_N u -> (0 < u)%N ->
  bound_reply (Some c) (Reply e v u) = Reply true tmark (Z.to_N c).
Proof.
  intros H1 H2 H3. unfold bound_reply, timeout_finite, oz. destruct (Z.geb_spec c 0); [|lia].
  destruct (Z.leb_spec c (Z.of_N u)); [|lia]. destruct (N.eqb_spec u 0); [lia|reflexivity].
Qed.
Lemma bound_reply_in_time cfg e v u : timeout_finite cfg = false \/ Z.of_N u < oz cfg \/ u = 0%N ->
  bound_reply cfg (Reply e v u) = Reply e v u.
Proof.
  intros H. unfold bound_reply. destruct H as [H|[H|H]].
  - now rewrite H.
  - destruct (Z.leb_spec (oz cfg) (Z.of_N u)); [lia|]. now rewrite andb_false_r.
  - subst u. now rewrite andb_false_r.
Qed.
Lemma bound_reply_other cfg m : (forall e v u, m <> Reply e v u) -> bound_reply cfg m = m.
Proof. destruct m; intros H; [now destruct (H e v u)|reflexivity..]. Qed.
