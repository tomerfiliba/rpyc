(* C07 proofs: for any messages, service objects and handler table, the connection's event trace is well-formed against a
   ghost replay.  Two passes over the interpreter: [spec] (Section Inv) follows the values, so that each emitted event is
   legitimate when it happens; [fspec] (Section Frame) needs neither invariant nor values: what a computation appends. *)
From V Require Import lib.Base model.Brine model.Attr model.Hostile proofs.AttrP.
From V Require proofs.VinegarP.
From Coq Require Import String.
Open Scope bool_scope.

(* the local [fix go] loops of box / unbox and [eval_list] are instances of this one *)
Definition mapM {W X Y} (g : X -> @Hostile.M W Y) : list X -> @Hostile.M W (list Y) :=
  fix go l := match l with [] => ret [] | x :: r => mbind (g x) (fun y => mbind (go r) (fun ys => ret (y :: ys))) end.

Lemma eval_list_mapM {W} (S : sem W) C UL BL l : eval_list S C UL BL l = mapM (eval S C UL BL [] []) l.
Proof. reflexivity. Qed.

(* self._HANDLERS[handler](self, *args ) once the handler is found, and the part of _dispatch_request inside its try *)
Definition run_handler {W} (S : sem W) C UL BL (d : hdef) (args : lval) : @Hostile.M W lval :=
  mbind (iter_lval S C UL BL args) (fun l =>
    let n := List.length l in
    if (n <? h_min d)%nat || (h_min d + List.length (h_defaults d) <? n)%nat then raise_std TypeError
    else mbind (eval_list S C UL BL (skipn (n - h_min d) (h_defaults d))) (fun ds => eval S C UL BL (l ++ ds) [] (h_body d))).
Lemma call_handler_eq {W} (S : sem W) C HT DT UL BL hv args : call_handler S C HT DT UL BL hv args =
  match hv with
  | PFset _ | PSlice _ _ _ | POther _ => unm
  | _ => match find_handler HT DT hv with None => raise_std KeyError | Some d => run_handler S C UL BL d args end
  end.
Proof. reflexivity. Qed.
Definition request_body {W} (S : sem W) C HT DT UL BL (raw : pyval) : @Hostile.M W lval :=
  mbind (lift (Vinegar.unpack 2 raw)) (fun ha =>
    match ha with
    | [h; pkg] => mbind (unbox S C UL FUEL pkg) (fun args => call_handler S C HT DT UL BL h args)
    | _ => raise_std ValueError
    end).

Section Kind.
Variable ML : list (Z * dact).
Definition kind_of (msg : pyval) : option (dact * pyval * pyval) :=
  match Vinegar.unpack 3 msg with
  | Ok [kind; seq; args] =>
      match match num_of kind with Some z => assoc_z z ML | None => None end with
      | Some d => Some (d, seq, args)
      | None => None
      end
  | _ => None
  end.
End Kind.
(* _dispatch after rebuilding the payload of a message that is not a request; [esc]: which failures leave serve() *)
Definition reply_out {W A} (esc : xid -> bool) (sr : hst W * res A) : hst W * out :=
  match sr with
  | (s1, ROk _) => (s1, OIgnored)
  | (s1, RRaise x) => if esc x then (end_conn s1, OEnd x) else (s1, OIgnored)
  | (s1, RUnm) => (s1, OUnm)
  end.
Definition msg_start {W} (s : hst W) (answers : list panswer) : hst W := with_ctxs (with_script (add_ev s EMsg) answers) [].
Lemma handle_msg_core_kind {W} (S : sem W) C HT DT ML UL BL msg answers (s : hst W) : closed s = false ->
  handle_msg_core S C HT DT ML UL BL msg answers s =
  let s0 := msg_start s answers in
  match kind_of ML msg with
  | Some (DRequest, seq, args) => dispatch_request S C HT DT UL BL seq args s0
  | Some (DReply, _, args) => reply_out (fun _ => true) (unbox S C UL FUEL args s0)
  | Some (DException, _, args) => reply_out (fun _ => true) (load_exc S C args s0)
  | Some (DReplyG, _, args) => reply_out escapes_response (unbox S C UL FUEL args s0)
  | Some (DExceptionG, _, args) => reply_out escapes_response (load_exc S C args s0)
  | None => match Vinegar.unpack 3 msg with
            | Ok _ => (end_conn s0, OEnd (XStd ValueError))
            | Raise e => (end_conn s0, OEnd (XStd e))
            | _ => (s0, OUnm)
            end
  end.
Proof.
  intros Hc. unfold handle_msg_core, kind_of. rewrite Hc.
  destruct (Vinegar.unpack 3 msg) as [[|kind [|seq [|args [|? ?]]]]| | |]; try reflexivity.
  destruct (match num_of kind with Some z => assoc_z z ML | None => None end) as [[]|]; cbv beta iota delta [reply_out response_out]; reflexivity.
Qed.
Lemma end_conn_closed {W} (s : hst W) : closed (end_conn s) = true.
Proof. unfold end_conn. destruct (closed s) eqn:X; [exact X|reflexivity]. Qed.
Lemma reply_out_outcome {W A} esc (sr : hst W * res A) s' o : reply_out esc sr = (s', o) ->
  o = OIgnored \/ (exists x, o = OEnd x /\ esc x = true /\ closed s' = true) \/ o = OUnm.
Proof.
  destruct sr as [s1 [a|x|]]; cbn [reply_out]; [|destruct (esc x) eqn:Ex|]; intros [= <- <-]; eauto 6 using end_conn_closed.
Qed.

Definition quiet {W A} (m : @Hostile.M W A) : Prop :=
  forall s, exists s' a, m s = (s', ROk a) /\ tr s' = tr s /\ tbl s' = tbl s /\ wst s' = wst s.
Lemma quiet_ret {W A} (a : A) : quiet (@ret W A a). Proof. intros s. now eexists _, _. Qed.
Lemma quiet_if {W A} (b : bool) (m m' : @Hostile.M W A) : quiet m -> quiet m' -> quiet (if b then m else m').
Proof. now destruct b. Qed.
Lemma quiet_mark {W} : quiet (@mark_approx W). Proof. intros s. now eexists _, _. Qed.
Lemma quiet_pop {W} : quiet (@pop_answer W). Proof. intros s. unfold pop_answer. destruct (script s); now eexists _, _. Qed.
Lemma quiet_in_ccache {W} k : quiet (@in_ccache W k). Proof. intros s. now eexists _, _. Qed.
Lemma quiet_was_seen {W} k : quiet (@was_seen W k). Proof. intros s. now eexists _, _. Qed.
Lemma quiet_note_seen {W} k : quiet (@note_seen W k). Proof. intros s. now eexists _, _. Qed.
Lemma quiet_note_class {W} k : quiet (@note_class W k). Proof. intros s. now eexists _, _. Qed.
Create HintDb quiet.
#[export] Hint Resolve quiet_ret quiet_if quiet_mark quiet_pop quiet_in_ccache quiet_was_seen quiet_note_seen quiet_note_class : quiet.

Lemma index3_carried v x : index3 v = RRaise x -> carried x = [].
Proof. destruct v as [| | | | | |l|l|l| | | |]; try (now intros [= <-]); destruct l as [|? [|? [|? ?]]]; now intros [= <-]. Qed.
Lemma index2_carried v x : index2 v = RRaise x -> carried x = [].
Proof. destruct v as [| | | | | |l|l|l| | | |]; try (now intros [= <-]); destruct l as [|? [|? ?]]; now intros [= <-]. Qed.
Lemma methods_ok_carried m x : methods_ok m = RRaise x -> carried x = [].
Proof.
  destruct m; try discriminate. cbn. destruct (iter_elems false v) as [l| | |]; try discriminate; [destruct (forallb _ l); discriminate|now intros [= <-]].
Qed.
Lemma xid_of_rcls_carried c : carried (xid_of_rcls c) = [].
Proof.
  destruct c as [[n|m n]|m n]; try reflexivity. unfold xid_of_rcls.
  destruct (existsb (text_eqb n) base_only_names); [reflexivity|]. destruct (std_of_name n); reflexivity.
Qed.

Section Inv.
Context {W : Type}.
Variable S : sem W.
Variable C : config.
Variable HT : list (string * hdef).
Variable DT : list (Z * string).
Variable ML : list (Z * dact).
Variable UL : list (Z * uact).
Variable BL : list (string * Z).
(* Python's own operations on plain values cannot conjure service objects: whatever they hand out came in with the arguments *)
Definition val_closed : Prop := forall op v args, incl (yields (s_val S op v args)) (flat_map objs_of args).
Hypothesis Sval : val_closed.

(* ghost replay of a trace (newest first) *)
Record ghost := { g_tbl : table; g_auth : list oid }.
Definition g0 : ghost := {| g_tbl := []; g_auth := [] |}.
Definition g_hold (g : ghost) (ys : list oid) : ghost := {| g_tbl := g_tbl g; g_auth := ys ++ g_auth g |}.
Definition g_set (g : ghost) (t : table) : ghost := {| g_tbl := t; g_auth := g_auth g |}.
Definition gstep (g : ghost) (e : event) : ghost :=
  match e with
  | EMsg => {| g_tbl := g_tbl g; g_auth := [] |}
  | ERoot o | EResolve _ o => g_hold g [o]
  | EType _ ty => g_hold g [ty]
  | EAttr _ _ _ ys | EHook _ _ _ ys | ETouch _ _ ys | EForeign ys => g_hold g ys
  | EBox k o => g_set g (tbl_add k o (g_tbl g))
  | EDecref k n => g_set g (tbl_decref k n (g_tbl g))
  | EClear => g_set g []
  | _ => g
  end.
Fixpoint ghost_of (t : list event) : ghost :=
  match t with [] => g0 | e :: t' => gstep (ghost_of t') e end.

(* what makes one event legitimate given everything before it.  Probe, access, hook: the object is held and SOME name and
   view lead the C06 decision to this name; the object's view at that moment is not in the trace, so the clause bounds
   the names that can appear, not the decision for this object *)
Definition ev_ok (g : ghost) (e : event) : Prop :=
  match e with
  | ERoot o => o = s_root S
  | EResolve k o => exists c, tbl_find k (g_tbl g) = Some (o, c)
  | EMiss k => tbl_find k (g_tbl g) = None
  | EType o ty => In o (g_auth g) /\ ty = s_type S o
  | EProbe o n => In o (g_auth g) /\ exists p pn vw, In (EGet n) (probes_of (c_attr C) p pn vw)
  | EAttr o p final _ => In o (g_auth g) /\ exists pn vw, decide (c_guard C) (c_attr C) p pn vw = Ok (ViaDefault final)
  | EHook o p n _ => In o (g_auth g) /\ exists pn vw, decide (c_guard C) (c_attr C) p pn vw = Ok (ViaHook n)
  | ETouch o op _ => In o (g_auth g) /\ (op = OpPickle -> c_pickle C = true)
  | EBox k o => In o (g_auth g) /\ k = s_key S o
  | EDecref k _ => tbl_find k (g_tbl g) <> None
  | EVin v => exists payload, In v (fst (Vinegar.vload Vinegar.LkGetattr (c_rflags C) (s_env S) payload))
  | EPayload o _ => In o (g_auth g)
  | EForeign ys => incl ys (g_auth g)
  | ECls _ => Vinegar.hooks_run (c_cls_mode C) (c_rflags C) = true
  | EGlobalRead _ => c_cls_reads C = true
  | _ => True
  end.
Fixpoint wf (t : list event) : Prop :=
  match t with [] => True | e :: t' => wf t' /\ ev_ok (ghost_of t') e end.

Notation state := (hst W).
Definition auth (s : state) : list oid := g_auth (ghost_of (tr s)).
Definition Inv (s : state) : Prop := wf (tr s) /\ g_tbl (ghost_of (tr s)) = tbl s.
Definition ext (s s' : state) : Prop := incl (auth s) (auth s').
Definition holds (s : state) (v : lval) : Prop := incl (objs_of v) (auth s).
Definition holds_all (s : state) (l : list lval) : Prop := Forall (holds s) l.

Lemma ext_refl s : ext s s. Proof. apply incl_refl. Qed.
Lemma ext_trans a b c : ext a b -> ext b c -> ext a c. Proof. apply incl_tran. Qed.
Lemma holds_ext s s' v : ext s s' -> holds s v -> holds s' v.
Proof. intros E H. eapply incl_tran; eauto. Qed.
Lemma holds_all_flat s l : holds_all s l <-> incl (flat_map objs_of l) (auth s).
Proof.
  unfold holds_all, holds. rewrite Forall_forall. split.
  - intros H o Ho. apply in_flat_map in Ho as (v & Hv & Ho). exact (H v Hv o Ho).
  - intros H v Hv o Ho. apply H. apply in_flat_map. eauto.
Qed.
Lemma holds_LT s l : holds s (LT l) <-> holds_all s l.
Proof. symmetry. apply holds_all_flat. Qed.
Lemma holds_noobj s v : objs_of v = [] -> holds s v.
Proof. unfold holds. intros ->. apply incl_nil_l. Qed.
Lemma holds_LO s o : holds s (LO o) <-> In o (auth s).
Proof. unfold holds. cbn. split; [intros H; apply H; now left | intros H x [<-|[]]; exact H]. Qed.
Lemma holds_LV s p : holds s (LV p). Proof. now apply holds_noobj. Qed.
Lemma holds_map_LV s l : holds_all s (map LV l).
Proof. apply Forall_forall. intros x Hx. apply in_map_iff in Hx as (p & <- & _). apply holds_LV. Qed.
Lemma holds_tuple_items s b : holds s b -> holds_all s (tuple_items b).
Proof.
  destruct b as [[]| | | | | |]; cbn [tuple_items]; try (intros; constructor).
  - intros _. apply holds_map_LV.
  - apply holds_LT.
Qed.
Lemma holds_all_cons s v l : holds s v -> holds_all s l -> holds_all s (v :: l). Proof. now constructor. Qed.
Lemma holds_all_app s a b : holds_all s a -> holds_all s b -> holds_all s (a ++ b).
Proof. intros. now apply Forall_app. Qed.
Lemma holds_nth s l i v : holds_all s l -> nth_error l i = Some v -> holds s v.
Proof. intros H E. apply nth_error_In in E. exact (proj1 (Forall_forall _ _) H v E). Qed.
Lemma holds_all_incl s l l' : incl l' l -> holds_all s l -> holds_all s l'.
Proof. unfold holds_all. rewrite !Forall_forall. intros H K x Hx. apply K, H, Hx. Qed.
Lemma take_z_incl {A} (l : list A) : forall z, incl (take_z z l) l.
Proof.
  induction l as [|x l IH]; intros z; cbn; [apply incl_refl|].
  destruct (0 <? z)%Z; [|apply incl_nil_l]. intros y [<-|H]; [now left|right; now apply (IH (z - 1)%Z)].
Qed.
Hint Resolve holds_map_LV holds_tuple_items holds_all_app holds_all_cons : held.
Hint Extern 1 (holds _ _) => apply holds_noobj; reflexivity : held.
Hint Resolve -> holds_LT : held.
Hint Resolve <- holds_LT : held.
Hint Resolve -> holds_LO : held.

(* the objects an event hands to the current request *)
Definition gain (e : event) : list oid :=
  match e with
  | ERoot o | EResolve _ o => [o]
  | EType _ ty => [ty]
  | EAttr _ _ _ ys | EHook _ _ _ ys | ETouch _ _ ys | EForeign ys => ys
  | _ => []
  end.
Lemma gstep_auth g e : e <> EMsg -> g_auth (gstep g e) = gain e ++ g_auth g.
Proof. destruct e; try reflexivity. intros H. now elim H. Qed.
Definition tbl_neutral (e : event) : Prop :=
  match e with EBox _ _ | EDecref _ _ | EClear | EMsg => False | _ => True end.
Lemma gstep_neutral g e : tbl_neutral e -> g_tbl (gstep g e) = g_tbl g.
Proof. destruct e; cbn; tauto. Qed.

(* [s'] is [s1] plus one legitimate event (and its table); [s] is any earlier state of the same request *)
Lemma event_ok s s1 s' e : Inv s1 -> ext s s1 -> tr s' = e :: tr s1 -> e <> EMsg -> ev_ok (ghost_of (tr s1)) e ->
  tbl s' = g_tbl (gstep (ghost_of (tr s1)) e) -> Inv s' /\ ext s s' /\ incl (gain e) (auth s').
Proof.
  intros [Hw Ht] X Etr Hne Hok Etb. unfold Inv, ext, auth. rewrite Etr. cbn [wf ghost_of]. rewrite gstep_auth by exact Hne.
  split; [split; [split; assumption|now symmetry]|split; [apply incl_appr, X|apply incl_appl, incl_refl]].
Qed.
Lemma neutral_ok s s1 e : Inv s1 -> ext s s1 -> tbl_neutral e -> ev_ok (ghost_of (tr s1)) e ->
  Inv (add_ev s1 e) /\ ext s (add_ev s1 e) /\ incl (gain e) (auth (add_ev s1 e)).
Proof.
  intros I X Hn Hok. apply (event_ok s s1); try assumption; try reflexivity.
  - intros ->. exact Hn.
  - cbn. rewrite gstep_neutral by exact Hn. symmetry. apply I.
Qed.
Lemma events_ok {T} (f : T -> event) l : forall s s1, Inv s1 -> ext s s1 ->
  (forall x, In x l -> tbl_neutral (f x) /\ forall g, incl (auth s1) (g_auth g) -> ev_ok g (f x)) ->
  let s' := fold_left (fun s x => add_ev s (f x)) l s1 in Inv s' /\ ext s s'.
Proof.
  induction l as [|x l IH]; intros s s1 I X H; cbn; [now split|].
  destruct (H x (or_introl eq_refl)) as [Hn Hok].
  destruct (neutral_ok s1 s1 (f x) I (ext_refl _) Hn (Hok _ (incl_refl _))) as (I' & X' & _).
  apply IH; [exact I'|exact (ext_trans _ _ _ X X')|]. intros y Hy. destruct (H y (or_intror Hy)) as [Hn' Hok']. split; [exact Hn'|].
  intros g Hg. apply Hok'. exact (incl_tran X' Hg).
Qed.

Definition M := @Hostile.M W.
Definition stable (P : state -> Prop) : Prop := forall s s', ext s s' -> P s -> P s'.
(* what a raised exception carries was handed out by an operation of this request: only service code attaches objects *)
Definition outcome {A} (post : state -> A -> Prop) (s : state) (r : res A) : Prop :=
  match r with ROk a => post s a | RRaise x => incl (carried x) (auth s) | RUnm => True end.
Definition lands {A} (post : state -> A -> Prop) (s s' : state) (r : res A) : Prop := Inv s' /\ ext s s' /\ outcome post s' r.
Definition spec {A} (pre : state -> Prop) (m : M A) (post : state -> A -> Prop) : Prop :=
  forall s s' r, Inv s -> pre s -> m s = (s', r) -> lands post s s' r.

Lemma lands_refl {A} (post : state -> A -> Prop) s r : Inv s -> outcome post s r -> lands post s s r.
Proof. intros I H. exact (conj I (conj (ext_refl s) H)). Qed.
Lemma lands_yields s s' (r : res lval) : Inv s' /\ ext s s' /\ incl (yields r) (auth s') -> lands holds s s' r.
Proof. intros (I & X & H). split; [exact I|split; [exact X|]]. destruct r; [exact H|exact H|exact Logic.I]. Qed.

Lemma lands_nothing s s1 (r : res lval) : Inv s1 -> ext s s1 -> yields r = [] -> lands holds s s1 r.
Proof. intros I X H. apply lands_yields. rewrite H. exact (conj I (conj X (incl_nil_l _))). Qed.

Lemma spec_weaken {A} (pre pre' : state -> Prop) (m : M A) (post post' : state -> A -> Prop) :
  spec pre m post -> (forall s, pre' s -> pre s) -> (forall s a, post s a -> post' s a) -> spec pre' m post'.
Proof.
  intros H Hp Hq s s' r I P E. destruct (H s s' r I (Hp _ P) E) as (I' & X & Q).
  split; [exact I'|split; [exact X|]]. destruct r; cbn in *; auto.
Qed.
Lemma spec_pre {A} (pre pre' : state -> Prop) (m : M A) (post : state -> A -> Prop) :
  spec pre m post -> (forall s, pre' s -> pre s) -> spec pre' m post.
Proof. intros H Hp. eapply spec_weaken; [exact H|exact Hp|auto]. Qed.
Lemma spec_ret {A} (pre : state -> Prop) (a : A) (post : state -> A -> Prop) : (forall s, pre s -> post s a) -> spec pre (ret a) post.
Proof. intros H s s' r I P [= <- <-]. apply lands_refl; [exact I|exact (H s P)]. Qed.
Lemma spec_raise {A} (pre : state -> Prop) x (post : state -> A -> Prop) : carried x = [] -> spec pre (raise x) post.
Proof. intros Hx s s' r I P [= <- <-]. apply lands_refl; [exact I|]. cbn. rewrite Hx. apply incl_nil_l. Qed.
Lemma spec_raise_std {A} (pre : state -> Prop) e (post : state -> A -> Prop) : spec pre (raise_std e) post.
Proof. now apply spec_raise. Qed.
Lemma spec_unm {A} (pre : state -> Prop) (post : state -> A -> Prop) : spec pre unm post.
Proof. intros s s' r I P [= <- <-]. now apply lands_refl. Qed.
Lemma spec_lift {A} (r : result A) : spec (fun _ => True) (lift r) (fun _ _ => True).
Proof. destruct r; cbn [lift]; [now apply spec_ret | apply spec_raise_std | apply spec_unm | apply spec_unm]. Qed.
Lemma spec_bind {A B} (pre : state -> Prop) (m : M A) (k : A -> M B) (mid : state -> A -> Prop) (post : state -> B -> Prop) :
  stable pre -> spec pre m mid -> (forall a, spec (fun s => pre s /\ mid s a) (k a) post) -> spec pre (mbind m k) post.
Proof.
  intros St Hm Hk s s' r I P E. unfold mbind in E. destruct (m s) as [s1 r1] eqn:Em.
  destruct (Hm _ _ _ I P Em) as (I1 & X1 & Q1).
  destruct r1 as [a|x|]; [|injection E as <- <-; exact (conj I1 (conj X1 Q1))..].
  destruct (Hk a _ _ _ I1 (conj (St _ _ X1 P) Q1) E) as (I2 & X2 & Q2). exact (conj I2 (conj (ext_trans _ _ _ X1 X2) Q2)).
Qed.
Lemma spec_quiet {A} (m : M A) : quiet m -> spec (fun _ => True) m (fun _ _ => True).
Proof.
  intros Q s s' r I P E. destruct (Q s) as (s1 & a & E1 & Et & Eb & _). rewrite E1 in E. injection E as <- <-.
  unfold lands, Inv, ext, auth. rewrite Et, Eb. exact (conj I (conj (incl_refl _) Logic.I)).
Qed.

Lemma stable_and P Q : stable P -> stable Q -> stable (fun s => P s /\ Q s).
Proof. intros HP HQ s s' E [p q]. split; eauto. Qed.
Lemma stable_const (P : Prop) : stable (fun _ => P). Proof. intros s s' _ p; exact p. Qed.
Lemma stable_holds v : stable (fun s => holds s v). Proof. intros s s' E. now apply holds_ext. Qed.
Lemma stable_holds_all l : stable (fun s => holds_all s l).
Proof. intros s s' E H. eapply Forall_impl; [|exact H]. intros v. now apply holds_ext. Qed.
Lemma stable_auth o : stable (fun s => In o (auth s)). Proof. intros s s' E H. now apply E. Qed.
Lemma stable_true : stable (fun _ => True). Proof. intros s s' _ _. exact I. Qed.
Lemma stable_incl ys : stable (fun s => incl ys (auth s)). Proof. intros s s' E H. exact (incl_tran H E). Qed.
Hint Resolve stable_and stable_holds stable_holds_all stable_true stable_incl : stab.

Definition PRE (env loc : list lval) : state -> Prop := fun s => holds_all s env /\ holds_all s loc.
Lemma stable_PRE env loc : stable (PRE env loc). Proof. unfold PRE. auto with stab. Qed.
Hint Resolve stable_PRE : stab.

(* [held]: [forall s, pre s -> holds s v] (or [holds_all]), where [pre] says of some values that they are held and v is one
   of them, built from them, or without objects *)
Ltac held := intros; unfold PRE in *; intuition (auto with held).
(* [meets L by t]: the goal is lemma L up to its precondition; t must prove that the present one implies it.  L's own
   premises are left as goals, in L's order.  [bind L as x by t]: the same for the first computation of a bind; the
   continuation, with result x, is the last goal.  Without [by]: by [held]. *)
Ltac stab := repeat apply stable_and; auto with stab.
Tactic Notation "meets" uconstr(L) "by" tactic3(t) := eapply spec_pre; [eapply L|solve [t]].
Tactic Notation "meets" uconstr(L) := meets L by held.
Tactic Notation "bind" uconstr(L) "as" simple_intropattern(x) "by" tactic3(t) :=
  eapply spec_bind; [stab|meets L by t|intros x].
Tactic Notation "bind" uconstr(L) "as" simple_intropattern(x) := bind L as x by held.

Lemma spec_try_exc {A} (pre : state -> Prop) all (m h : M A) (post : state -> A -> Prop) :
  stable pre -> spec pre m post -> spec pre h post -> spec pre (try_exc all m h) post.
Proof.
  intros St Hm Hh s s' r I P E. unfold try_exc in E. destruct (m s) as [s1 r1] eqn:E1.
  pose proof (Hm _ _ _ I P E1) as L1. destruct r1 as [a|x|]; [now injection E as <- <-| |now injection E as <- <-].
  destruct (all || is_exception x); [|now injection E as <- <-]. destruct L1 as (I1 & X1 & _).
  destruct (Hh _ _ _ (I1 : Inv (with_ctxs s1 _)) (St _ (with_ctxs s1 _) X1 P) E) as (I2 & X2 & Q2). exact (conj I2 (conj (ext_trans _ _ _ X1 X2) Q2)).
Qed.
(* PEP 479 turns a StopIteration into a RuntimeError, which carries nothing *)
Lemma spec_genexpr {A} (pre : state -> Prop) (m : M A) (post : state -> A -> Prop) : spec pre m post -> spec pre (in_genexpr m) post.
Proof.
  intros H s s' r I P E. unfold in_genexpr in E. destruct (m s) as [s1 r1] eqn:Em. pose proof (H _ _ _ I P Em) as L.
  destruct r1 as [?|[[]| | | | | |]|]; injection E as <- <-; exact L.
Qed.
Lemma spec_mapM {X Y} (pre : state -> Prop) (g : X -> M Y) (Q : state -> Y -> Prop) l :
  stable pre -> (forall y, stable (fun s => Q s y)) -> (forall x, In x l -> spec pre (g x) Q) ->
  spec pre (mapM g l) (fun s ys => Forall (Q s) ys).
Proof.
  intros Sp SQ. induction l as [|x l IH]; intros Hg; cbn [mapM]; [apply spec_ret; constructor|].
  eapply spec_bind; [exact Sp|apply Hg; now left|intros y].
  eapply spec_bind; [auto with stab|eapply spec_pre; [apply IH; intros; apply Hg; now right|tauto]|intros ys].
  apply spec_ret. intros s [[_ Hy] Hys]. now constructor.
Qed.

(* leaves of the case analyses: not modelled, the implementation's own exception, a plain return *)
Hint Resolve spec_unm spec_raise_std : spec.
Hint Extern 1 (spec _ (ret _) _) => apply spec_ret; solve [held] : spec.

Lemma yields_auth s e (r : res lval) ys : ys = yields r -> e <> EMsg ->
  g_auth (gstep (ghost_of (tr s)) e) = ys ++ auth s -> forall a, r = ROk a -> incl (objs_of a) (g_auth (gstep (ghost_of (tr s)) e)).
Proof. intros -> _ E a ->. rewrite E. cbn. apply incl_appl, incl_refl. Qed.

Lemma spec_emit e : tbl_neutral e -> spec (fun s => ev_ok (ghost_of (tr s)) e) (emit e) (fun s _ => incl (gain e) (auth s)).
Proof. intros Hn s s' r I P [= <- <-]. exact (neutral_ok s s e I (ext_refl s) Hn P). Qed.
Lemma spec_touch op o args : (op = OpPickle -> c_pickle C = true) -> spec (fun s => holds s (LO o)) (touch S op o args) holds.
Proof.
  intros Hp s s' r I P E. unfold touch in E. destruct (s_op S (wst s) op o args) as [w r0]. injection E as <- <-.
  apply lands_yields. exact (neutral_ok s s (ETouch o op (yields r0)) I (ext_refl s) Logic.I (conj (proj1 (holds_LO s o) P) Hp)).
Qed.
Lemma spec_val_op op v args : spec (fun s => holds_all s args) (val_op S op v args) holds.
Proof.
  intros s s' r I P [= <- <-]. apply lands_yields. exact (neutral_ok s s (EForeign _) I (ext_refl s) Logic.I (incl_tran (Sval op v args) (proj1 (holds_all_flat s args) P))).
Qed.
Lemma spec_resolve (pre : state -> Prop) k : spec pre (resolve k) holds.
Proof.
  intros s s' r I P E. unfold resolve in E.
  destruct (tbl_find k (tbl s)) as [[o c]|] eqn:F; injection E as <- <-; apply lands_yields.
  - apply (neutral_ok s s (EResolve k o) I (ext_refl s) Logic.I). exists c. now rewrite (proj2 I).
  - apply (neutral_ok s s (EMiss k) I (ext_refl s) Logic.I). cbn. now rewrite (proj2 I).
Qed.
Lemma spec_lend o : spec (fun s => holds s (LO o)) (lend S o) (fun _ _ => True).
Proof.
  intros s s' r I P [= <- <-].
  destruct (event_ok s s (with_tbl (add_ev s (EBox (s_key S o) o)) (tbl_add (s_key S o) o (tbl s))) (EBox (s_key S o) o) I (ext_refl s) eq_refl) as (I' & X' & _);
    [discriminate|split; [now apply holds_LO|reflexivity]|cbn; now rewrite (proj2 I)|].
  exact (conj I' (conj X' Logic.I)).
Qed.
Lemma spec_cleanup : spec (fun _ => True) cleanup (fun _ _ => True).
Proof.
  intros s s' r I P [= <- <-].
  destruct (neutral_ok s s EDisconnect I (ext_refl s) Logic.I Logic.I) as (I1 & X1 & _).
  destruct (event_ok s _ (with_closed (with_tbl (add_ev (add_ev s EDisconnect) EClear) [])) EClear I1 X1 eq_refl) as (I2 & X2 & _);
    [discriminate|exact Logic.I|reflexivity|].
  exact (conj I2 (conj X2 Logic.I)).
Qed.
Lemma tbl_find_some_neq k t o c : tbl_find k t = Some (o, c) -> tbl_find k t <> None.
Proof. intros ->. discriminate. Qed.
Lemma spec_decref k c : spec (fun s => holds s c) (decref S k c) holds.
Proof.
  destruct k; cbn [decref]; auto with spec.
  intros s s' r I Hc E. destruct (tbl_find v (tbl s)) as [[o cnt]|] eqn:F.
  - assert (G : forall n, lands holds s (with_tbl (add_ev s (EDecref v n)) (tbl_decref v n (tbl s))) (ROk (LV PNone))).
    { intros n. destruct (event_ok s s (with_tbl (add_ev s (EDecref v n)) (tbl_decref v n (tbl s))) (EDecref v n) I (ext_refl s) eq_refl) as (I' & X' & _);
        [discriminate|cbn; rewrite (proj2 I); exact (tbl_find_some_neq _ _ _ _ F)|cbn; now rewrite (proj2 I)|].
      exact (conj I' (conj X' (holds_LV _ _))). }
    destruct c as [[]| | | | | |]; try (injection E as <- <-; first [apply G | apply lands_refl; [exact I|try apply incl_nil_l; exact Logic.I]]).
    revert E. apply (spec_bind (fun s => holds s (LO o0)) (touch S OpCmp o0 []) (fun _ => unm) holds); auto with stab.
    + now apply spec_touch.
    + intros ?. apply spec_unm.
  - injection E as <- <-. apply lands_yields. apply (neutral_ok s s (EMiss v) I (ext_refl s) Logic.I). cbn. now rewrite (proj2 I).
Qed.

Lemma as_value_noobj : forall v p, as_value v = Some p -> True.
Proof. auto. Qed.

Lemma spec_box f : forall v, spec (fun s => holds s v) (box S BL f v) (fun _ _ => True).
Proof.
  induction f as [|f IH]; intros v; cbn [box]; [apply spec_unm|].
  destruct (as_value v), v; auto with spec.
  - bind spec_lend as ?. auto with spec.
  - eapply spec_bind; [auto with stab|apply (spec_mapM _ (box S BL f) (fun _ _ => True)); auto with stab|auto with spec].
    intros x Hx. eapply spec_pre; [apply IH|]. intros s H. apply holds_LT in H. exact (proj1 (Forall_forall _ _) H x Hx).
Qed.

Lemma load_exc_trace_carried payload s s' (r : res xid) : load_exc S C payload s = (s', r) ->
  s' = fold_left (fun s e => add_ev s (EVin e)) (fst (Vinegar.vload Vinegar.LkGetattr (c_rflags C) (s_env S) payload)) s /\
  match r with ROk x | RRaise x => carried x = [] | RUnm => True end.
Proof.
  unfold load_exc. destruct (Vinegar.vload _ _ _ payload) as [eff rr].
  destruct rr as [[| |c a sets st]| | |]; try (intros [= <- <-]; now split).
  destruct (negb (iterable a) || existsb set_fails sets); [intros [= <- <-]; now split|].
  destruct st; intros [= <- <-]; (split; [reflexivity|]); [apply xid_of_rcls_carried|reflexivity].
Qed.
Lemma spec_load_exc (pre : state -> Prop) payload : spec pre (load_exc S C payload) (fun _ x => carried x = []).
Proof.
  intros s s' r I P E. apply load_exc_trace_carried in E as [-> Hr].
  destruct (events_ok EVin (fst (Vinegar.vload Vinegar.LkGetattr (c_rflags C) (s_env S) payload)) s s I (ext_refl s)) as [I' X'].
  { intros v Hv. split; [exact Logic.I|]. intros g _. now exists payload. }
  split; [exact I'|split; [exact X'|]]. destruct r; cbn; try rewrite Hr; auto using incl_nil_l.
Qed.
Lemma spec_raise_loaded {A} (pre : state -> Prop) payload (post : state -> A -> Prop) : spec pre (raise_loaded S C payload) post.
Proof.
  intros s s' r I P E. unfold raise_loaded in E. destruct (load_exc S C payload s) as [s1 r1] eqn:El.
  destruct (spec_load_exc pre payload _ _ _ I P El) as (I1 & X1 & Q1).
  destruct r1; injection E as <- <-; (split; [exact I1|split; [exact X1|]]); cbn in *; try rewrite Q1; auto using incl_nil_l.
Qed.
Lemma class_imports_hooks name : class_imports S C name <> [] -> Vinegar.hooks_run (c_cls_mode C) (c_rflags C) = true.
Proof.
  unfold class_imports. destruct (find _ _) as [[m cls]|]; [|congruence].
  destruct (Vinegar.find_module _ _ m); [|congruence]. destruct (Vinegar.assoc cls n) as [[| |imps fnd]|]; try congruence.
  destruct (Vinegar.hooks_run _ _); congruence.
Qed.
Lemma spec_class_walk name : spec (fun _ => True) (class_walk S C name) (fun _ _ => True).
Proof.
  intros s s' r I P [= <- <-].
  destruct (events_ok (fun e => e) (map ECls (class_imports S C name) ++ class_global S C name) s s I (ext_refl s)) as [I' X'];
    [|exact (conj I' (conj X' Logic.I))].
  intros e He. apply in_app_or in He as [He|He].
  - apply in_map_iff in He as (m & <- & Hm). split; [exact Logic.I|]. intros g _.
    apply (class_imports_hooks name). intros X. rewrite X in Hm. contradiction.
  - unfold class_global in He. destruct (c_cls_reads C) eqn:Hr; [|contradiction]. destruct (assoc_txt name (s_globals S)); [|contradiction].
    destruct He as [<-|[]]. split; [exact Logic.I|]. intros g _. exact Hr.
Qed.

Lemma spec_unbox f : forall pkg, spec (fun _ => True) (unbox S C UL f pkg) holds.
Proof.
  induction f as [|f IH]; intros pkg; cbn [unbox]; [apply spec_unm|].
  bind spec_lift as lv. destruct lv as [|label [|value [|? ?]]]; try apply spec_raise_std.
  destruct (match num_of label with Some z => assoc_z z UL | None => None end) as [[| | |]|]; auto using spec_resolve with spec.
  - (* UTuple *) bind spec_lift as items.
    assert (G : spec (fun _ => True) (mbind (mapM (fun x => in_genexpr (unbox S C UL f x)) items) (fun l => ret (LT l))) holds).
    { eapply spec_bind; [auto with stab|apply (spec_mapM _ _ holds); auto with stab|intros l; apply spec_ret; held].
      intros x _. apply spec_genexpr, IH. }
    apply spec_pre with (pre := fun _ => True); [|easy]. destruct value; try exact G. destruct items as [|? [|? ?]]; try exact G. apply spec_unm.
  - (* URemote *) destruct (index3 value) as [[[a b] c]|x|] eqn:Ei; [|apply spec_raise; exact (index3_carried _ _ Ei)|apply spec_unm].
    destruct (py_str a) as [name|]; [|apply spec_unm].
    bind spec_quiet as cached; [auto with quiet|].
    destruct (is_zero c && cached); [apply spec_ret; held|].
    destruct (is_builtin_name S name); [apply spec_ret; held|].
    destruct (negb (sane_name name)); [apply spec_unm|].
    bind spec_quiet as seen; [auto with quiet|]. bind spec_quiet as ?; [auto with quiet|]. bind spec_quiet as ?; [auto with quiet|].
    bind spec_emit as ? by easy; [exact Logic.I|]. bind spec_quiet as ans; [auto with quiet|].
    destruct ans as [p|payload|]; [|apply spec_raise_loaded|apply spec_raise_std].
    bind IH as m. destruct (methods_ok m) eqn:Em; [|apply spec_raise; exact (methods_ok_carried _ _ Em)|apply spec_unm].
    bind spec_class_walk as ?. bind spec_quiet as ?; [auto with quiet|]. apply spec_ret; held.
Qed.

Lemma spec_ask h args : spec (fun s => holds_all s args) (ask S C UL BL h args) holds.
Proof.
  unfold ask. bind spec_box as ?. bind spec_emit as ? by easy; [exact Logic.I|]. bind spec_quiet as ans; [auto with quiet|].
  destruct ans as [p|payload|]; [meets spec_unbox|apply spec_raise_loaded|apply spec_raise_std].
Qed.
Lemma spec_converse h args : spec (fun s => holds_all s args) (converse S C UL BL h args) holds.
Proof. unfold converse. bind spec_quiet as ?; [auto with quiet|]. meets spec_ask. Qed.
(* an operation applied to a value: on an object, on a plain value, on a proxy *)
Hint Extern 1 (spec _ (touch _ _ _ _) _) => meets spec_touch; [first [discriminate | assumption]] : spec.
Hint Extern 1 (spec _ (val_op _ _ _ _) _) => meets spec_val_op : spec.
Hint Extern 1 (spec _ (converse _ _ _ _ _ _) _) => meets spec_converse : spec.

Lemma spec_iter v : spec (fun s => holds s v) (iter_lval S C UL BL v) holds_all.
Proof.
  destruct v; cbn [iter_lval]; auto with spec.
  - assert (G : spec (fun s => holds s (LV v)) (mbind (lift (iter_elems false v)) (fun l => ret (map LV l))) holds_all)
      by (bind spec_lift as items; auto with spec).
    destruct v; try exact G. destruct l as [|? [|? ?]]; try exact G. apply spec_unm.
  - bind spec_touch as r; [discriminate|]. destruct r; auto with spec.
  - bind spec_converse as r. destruct r as [[]| | | | | |]; auto with spec.
Qed.
Lemma spec_kw v : spec (fun s => holds s v) (kw_lval S C UL BL v) (fun _ _ => True).
Proof.
  destruct v as [[]| | | | | |]; cbn [kw_lval]; auto with spec.
  - (* bytes *) destruct b; auto with spec.
  - (* str *) destruct cps; auto with spec.
  - (* tuple *) destruct l; auto with spec.
  - (* frozenset *) destruct l; auto with spec.
  - (* an object *) bind spec_touch as r; [discriminate|]. destruct r as [| | |[]| | |]; auto with spec.
  - (* a tuple of the implementation *) destruct l; auto with spec.
  - (* a proxy *) bind spec_converse as r. auto with spec.
Qed.
Lemma spec_truthy v : spec (fun s => holds s v) (truthy S C UL BL v) (fun _ _ => True).
Proof.
  destruct v; cbn [truthy]; auto with spec.
  - bind spec_touch as r; [discriminate|]. destruct r as [[]| | | | | |]; auto with spec.
  - bind spec_converse as r. auto with spec.
Qed.

Lemma probes_are_gets c p pn vw e : In e (probes_of c p pn vw) -> e = EGet (ev_name e).
Proof.
  unfold probes_of. destruct (nkind_of pn); try contradiction; (destruct (hook_for vw p); [contradiction|]);
    intros H; apply in_map_iff in H as (q & <- & _); now destruct q.
Qed.
Lemma spec_access p g tgt nm extra : spec (fun s => holds s tgt /\ holds s nm) (access S C UL BL p g tgt nm extra) holds.
Proof.
  destruct tgt; cbn [access];
    try (destruct (decide (c_guard C) (c_attr C) p (pyname_of nm) no_obj) as [[?|final]|e| |]; try destruct (guard_ok g final); auto with spec; fail).
  - intros s s' r I [P _] E. apply holds_LO in P.
    set (vw := s_view S (wst s) o) in *. set (pn := pyname_of nm) in *.
    destruct (events_ok (fun e => EProbe o (ev_name e)) (probes_of (c_attr C) p pn vw) s s I (ext_refl s)) as [I1 X1].
    { intros e He. split; [exact Logic.I|]. intros g0 Hg. split; [exact (Hg _ P)|]. exists p, pn, vw. now rewrite <- (probes_are_gets _ _ _ _ _ He). }
    destruct (decide (c_guard C) (c_attr C) p pn vw) as [[n|final]|e| |] eqn:D; try (injection E as <- <-; now apply lands_nothing).
    + destruct (s_hook S _ o p n extra) as [w r0]. injection E as <- <-. apply lands_yields.
      apply (neutral_ok s _ (EHook o p n (yields r0)) I1 X1 Logic.I). split; [exact (X1 _ P)|eauto].
    + destruct (guard_ok g final); [|injection E as <- <-; now apply lands_nothing].
      destruct (s_attr S _ o p final extra) as [w r0]. injection E as <- <-. apply lands_yields.
      apply (neutral_ok s _ (EAttr o p final (yields r0)) I1 X1 Logic.I). split; [exact (X1 _ P)|eauto].
  - bind spec_converse as r. apply spec_unm.
Qed.

Lemma spec_islice b : spec (fun s => holds s b) (islice_count S C UL BL b) (fun _ _ => True).
Proof.
  destruct b as [[]| | | | | |]; cbn [islice_count]; auto with spec.
  - destruct ((0 <=? z)%Z && (z <=? MAXINT)%Z); auto with spec.
  - bind spec_touch as r; [discriminate|]. auto with spec.
  - bind spec_converse as r. auto with spec.
Qed.

Lemma spec_do_op op a b : (op = OpPickle -> c_pickle C = true) ->
  spec (fun s => holds s a /\ holds s b) (do_op S C UL BL op a b) holds.
Proof.
  intros Hp.
  assert (Other : forall op' h, (op' = OpPickle -> c_pickle C = true) ->
            spec (fun s => holds s a /\ holds s b)
              match a with
              | LO o => touch S op' o []
              | LV v => val_op S op' v []
              | LP idp => converse S C UL BL h [LP idp]
              | LT _ | LSlice _ _ | LOpq | LAny => unm
              end holds) by (intros; destruct a; auto with spec).
  destruct op; cbn [do_op]; try (apply Other; exact Hp).
  - (* OpIslice *)
    bind spec_islice as n. bind spec_iter as l. apply spec_ret. intros s [_ H]. apply holds_LT. destruct n; [|exact H].
    eapply holds_all_incl; [apply take_z_incl|exact H].
  - (* OpIsinstance *)
    destruct b; auto with spec.
    destruct (index2 v) as [[x y]|x|] eqn:Ei; [|apply spec_raise; exact (index2_carried _ _ Ei)|apply spec_unm].
    destruct x as [| | | | | | | |name| | | |]; auto with spec.
    bind spec_quiet as cached; [auto with quiet|].
    destruct (is_builtin_name S name || cached); [destruct a|]; auto with spec.
  - (* OpIdPack *)
    destruct a; auto with spec.
    bind spec_emit as ? by (intros s [Ha _]; split; [now apply holds_LO|discriminate]); [exact Logic.I|]. auto with spec.
  - (* OpPickle *) destruct a; auto with spec.
Qed.

(* no pickling outside the allow_pickle guard; g = "we are under the guard" *)
Fixpoint pk (g : bool) (e : hexp) : bool :=
  match e with
  | XOp op a b => (match op with OpPickle => g | _ => true end) && pk g a && pk g b
  | XGuardCfg key _ body => if String.eqb key "allow_pickle" then pk true body else true
  | XTupCons a b | XLet a b | XSlice a b | XDecref a b | XTryExc a b => pk g a && pk g b
  | XAccess _ _ o n x => pk g o && pk g n && pk g x
  | XType a | XLookup a | XCtxArgs _ _ a => pk g a
  | XCall f p st k => pk g f && pk g p && pk g st && pk g k
  | XIfNone c t e | XIfHasConn _ c t e => pk g c && pk g t && pk g e
  | XForward c _ a => pk g c && pk g a
  | _ => true
  end.


Lemma spec_ctx_raise load v : spec (fun s => holds s v) (ctx_raise S C UL BL load v) (fun _ _ => True).
Proof.
  unfold ctx_raise. destruct load.
  - destruct v as [p| |o|l|idp|? ?|]; auto with spec.
    + apply spec_raise_loaded.
    + bind spec_touch as r0; [discriminate|]. bind spec_touch as r; [discriminate|].
      destruct r as [?| |?|l|?|? ?|]; auto with spec. destruct l as [|? [|? [|? [|? [|? ?]]]]]; auto with spec.
    + destruct l as [|? [|? [|? [|? [|? ?]]]]]; auto with spec.
    + bind spec_converse as r. auto with spec.
  - destruct v; auto with spec. eapply spec_weaken; [now apply spec_touch|auto|auto].
Qed.

Lemma spec_eval e : pk (c_pickle C) e = true -> forall env loc, spec (PRE env loc) (eval S C UL BL env loc e) holds.
Proof.
  induction e; intros Hpk env loc; cbn [eval]; cbn [pk] in Hpk;
    repeat match goal with H : _ && _ = true |- _ => apply andb_prop in H as [? ?] end;
    auto with spec.  (* the constants: XNone XUnit XText XInt XMaxint XTup0 *)
  - (* XParam *) destruct (nth_error env i) eqn:E; [|apply spec_unm]. apply spec_ret. intros s [Hs _]. eapply holds_nth; eauto.
  - (* XLocal *) destruct (nth_error loc i) eqn:E; [|apply spec_unm]. apply spec_ret. intros s [_ Hs]. eapply holds_nth; eauto.
  - (* XRoot *) bind spec_emit as ? by easy; [exact Logic.I|]. auto with spec.
  - (* XCleanup *) bind spec_cleanup as ?. auto with spec.
  - (* XTupCons *) bind IHe1 as a; [assumption|]. bind IHe2 as b; [assumption|]. auto with spec.
  - (* XLet *) bind IHe1 as x; [assumption|]. meets IHe2. assumption.
  - (* XAccess *) bind IHe1 as ov; [assumption|]. bind IHe2 as nv; [assumption|]. bind IHe3 as xv; [assumption|]. meets spec_access.
  - (* XType *)
    bind IHe as v; [assumption|]. destruct v; auto with spec.
    + bind spec_emit as ? by (intros s [_ Hs]; split; [now apply holds_LO|reflexivity]); [exact Logic.I|]. auto with spec.
    + bind spec_quiet as ?; [auto with quiet|]. auto with spec.
  - (* XCall *)
    bind IHe1 as fv; [assumption|]. bind IHe2 as pv; [assumption|]. bind IHe3 as sv; [assumption|]. bind IHe4 as kv; [assumption|].
    eapply spec_bind with (mid := fun s sk => holds_all s (fst sk)); [stab| |intros sk].
    + destruct (tuple_items pv).
      * bind spec_kw as k.
        (* "<callee> argument after * must be an iterable": str(callee) *)
        eapply spec_bind with (mid := fun _ _ => True); [stab| |intros _].
        { destruct fv as [?| |o|[]|idp|? ?|]; try (now apply spec_ret); destruct sv as [sp| | | | | |]; try (now apply spec_ret);
            destruct (iter_elems false sp); try (now apply spec_ret).
          - bind spec_touch as ?; [discriminate|]. auto with spec.
          - apply spec_unm.
          - bind spec_converse as ?. auto with spec. }
        bind spec_iter as l0. auto with spec.
      * bind spec_iter as l1. bind spec_kw as k. auto with spec.
    + destruct fv; auto with spec.
  - (* XOp: pickling only under the guard *)
    bind IHe1 as av; [assumption|]. bind IHe2 as bv; [assumption|]. meets spec_do_op. intros ->. now destruct (c_pickle C).
  - (* XSlice *)
    bind IHe1 as av; [assumption|]. bind IHe2 as bv; [assumption|]. apply spec_ret. intros s [[_ Ha] Hb]. apply incl_app; assumption.
  - (* XLookup *) bind IHe as kv; [assumption|]. destruct (as_value kv); auto using spec_resolve with spec.
  - (* XDecref *) bind IHe1 as kv; [assumption|]. bind IHe2 as cv; [assumption|]. meets spec_decref.
  - (* XGuardCfg: the case split on c_pickle C turns [pk true body] into the premise of IHe *)
    destruct (String.eqb key "allow_pickle"); [|apply spec_unm].
    destruct (c_pickle C) eqn:Ec; [now apply IHe|apply spec_raise_std].
  - (* XTryExc *) apply spec_try_exc; [auto with stab|now apply IHe1|now apply IHe2].
  - (* XIfNone *)
    bind IHe1 as cv; [assumption|].
    assert (Else : spec (fun s => PRE env loc s /\ holds s cv) (eval S C UL BL env loc e3) holds) by (meets IHe3; assumption).
    destruct cv as [[]| | | | | |]; try exact Else. meets IHe2. assumption.
  - (* XIfHasConn *)
    bind IHe1 as cv; [assumption|].
    assert (Else : spec (fun s => PRE env loc s /\ holds s cv) (eval S C UL BL env loc e3) holds) by (meets IHe3; assumption).
    destruct cv; try exact Else; [clear Else|meets IHe2; assumption].
    destruct ty.
    + eapply spec_bind; [stab| |intros ?; meets IHe3; assumption].
      bind spec_emit as ? by (intros s [_ Hs]; split; [now apply holds_LO|reflexivity]); [exact Logic.I|].
      meets spec_emit by (intros s [_ Hs]; split; [apply Hs; now left|discriminate]). exact Logic.I.
    + bind spec_emit as ? by (intros s [_ Hs]; split; [now apply holds_LO|discriminate]); [exact Logic.I|]. meets IHe3. assumption.
  - (* XForward *) bind IHe1 as cv; [assumption|]. bind IHe2 as av; [assumption|]. meets spec_converse.
  - (* XCtxArgs *)
    bind IHe as v; [assumption|]. bind spec_truthy as b. destruct b; [|auto with spec].
    apply spec_try_exc; [stab| |auto with spec]. bind spec_ctx_raise as ?. auto with spec.
Qed.

Definition table_pk : Prop :=
  forall n d, In (n, d) HT -> pk (c_pickle C) (h_body d) = true /\ Forall (fun e => pk (c_pickle C) e = true) (h_defaults d).
Hypothesis HTpk : table_pk.

Lemma assoc_s_In {A} k (l : list (string * A)) v : assoc_s k l = Some v -> In (k, v) l.
Proof.
  induction l as [|[k' v'] l IH]; cbn; [discriminate|]. destruct (String.eqb_spec k k') as [->|N].
  - intros [= ->]. now left.
  - intros H. right. now apply IH.
Qed.
Lemma find_handler_In hv d : find_handler HT DT hv = Some d -> exists n, In (n, d) HT.
Proof.
  unfold find_handler. destruct (num_of hv); [|discriminate]. destruct (assoc_z z DT) as [nm|]; [|discriminate].
  intros H. exists nm. now apply assoc_s_In.
Qed.
Lemma Forall_skipn {A} (P : A -> Prop) n (l : list A) : Forall P l -> Forall P (skipn n l).
Proof. intros H. rewrite <- (firstn_skipn n l) in H. exact (proj2 (proj1 (Forall_app _ _ _) H)). Qed.

Lemma spec_run_handler d args : pk (c_pickle C) (h_body d) = true -> Forall (fun e => pk (c_pickle C) e = true) (h_defaults d) ->
  spec (fun s => holds s args) (run_handler S C UL BL d args) holds.
Proof.
  intros Hb Hd. unfold run_handler. bind spec_iter as l. cbn zeta.
  destruct (_ || _); [apply spec_raise_std|].
  rewrite eval_list_mapM. eapply spec_bind; [auto with stab|apply (spec_mapM _ _ holds); auto with stab|intros ds].
  - intros e He. meets spec_eval. exact (proj1 (Forall_forall _ _) (Forall_skipn _ _ _ Hd) e He).
  - meets spec_eval. exact Hb.
Qed.
Lemma spec_call_handler hv args : spec (fun s => holds s args) (call_handler S C HT DT UL BL hv args) holds.
Proof.
  rewrite call_handler_eq. destruct hv; try apply spec_unm;
    (destruct (find_handler HT DT _) as [d|] eqn:F; [|apply spec_raise_std]);
    destruct (find_handler_In _ _ F) as (n & Hn); now apply spec_run_handler; apply (HTpk n).
Qed.
Lemma spec_request raw : spec (fun _ => True) (request_body S C HT DT UL BL raw) holds.
Proof.
  unfold request_body. bind spec_lift as ha. destruct ha as [|h [|pkg [|? ?]]]; try apply spec_raise_std.
  bind spec_unbox as args. meets spec_call_handler.
Qed.

Lemma inv_end_conn s : Inv s -> Inv (end_conn s).
Proof.
  intros I. unfold end_conn. destruct (closed s); [exact I|].
  exact (proj1 (spec_cleanup s _ _ I Logic.I (surjective_pairing _))).
Qed.

(* reporting an exception touches what it, or an exception caught before it, carries *)
Lemma payload_event_shape x (cs : list (oid * nop)) e : In e (tb_events x ++ map (fun c => ECtx (fst c) (snd c)) cs ++ dump_events S x) ->
  (exists o op, e = EPayload o op /\ In o (carried x)) \/ exists o op, e = ECtx o op.
Proof.
  intros He. apply in_app_or in He as [He|He]; [|apply in_app_or in He as [He|He]]; [left|right|left].
  - destruct x; cbn in He; try contradiction; [apply in_map_iff in He as (o & <- & Ho)|destruct He as [<-|[]]]; eauto using in_eq.
  - apply in_map_iff in He as (c & <- & _). eauto.
  - destruct x; cbn in He; try contradiction; [apply in_map_iff in He as (o & <- & Ho); eauto|].
    destruct (s_callable S o); [contradiction|]. destruct He as [<-|[]]. eauto using in_eq.
Qed.
Lemma inv_payload x (cs : list (oid * nop)) s : Inv s -> incl (carried x) (auth s) ->
  Inv (fold_left add_ev (tb_events x ++ map (fun c => ECtx (fst c) (snd c)) cs ++ dump_events S x) s).
Proof.
  intros I H. apply (events_ok (fun e => e) _ s s I (ext_refl s)). intros e He.
  destruct (payload_event_shape x cs e He) as [(o & op & -> & Ho)|(o & op & ->)]; (split; [exact Logic.I|]); intros g Hg;
    [exact (Hg _ (H _ Ho))|exact Logic.I].
Qed.
Lemma inv_dispatch_request seq raw s s' o : Inv s -> dispatch_request S C HT DT UL BL seq raw s = (s', o) -> Inv s'.
Proof.
  intros I E. unfold dispatch_request in E. fold (request_body S C HT DT UL BL raw) in E.
  destruct (request_body S C HT DT UL BL raw s) as [s1 r1] eqn:Em. destruct (spec_request raw _ _ _ I Logic.I Em) as (I1 & X1 & Q1).
  destruct r1 as [v|x|]; [| |now injection E as <- <-]; (destruct (closed s1); [now injection E as <- <-|]).
  - destruct (box S BL FUEL v s1) as [s2 r2] eqn:Eb.
    destruct (spec_box FUEL v _ _ _ I1 Q1 Eb) as (I2 & _ & _). destruct r2; now injection E as <- <-.
  - destruct (propagates C x); injection E as <- <-; [now apply inv_end_conn|now apply inv_payload].
Qed.

Lemma inv_reply_out {A} esc (sr : state * res A) : Inv (fst sr) -> Inv (fst (reply_out esc sr)).
Proof. destruct sr as [s1 [a|x|]]; cbn [reply_out]; try destruct (esc x); cbn [fst]; auto using inv_end_conn. Qed.
Lemma inv_handle_msg_core msg answers s : Inv s -> Inv (fst (handle_msg_core S C HT DT ML UL BL msg answers s)).
Proof.
  intros I. destruct (closed s) eqn:Hc; [unfold handle_msg_core; now rewrite Hc|]. rewrite handle_msg_core_kind by exact Hc. cbn zeta.
  assert (I0 : Inv (msg_start s answers)) by (split; [exact (conj (proj1 I) Logic.I)|exact (proj2 I)]).
  destruct (kind_of ML msg) as [[[[] seq] args]|].
  - (* DRequest *) exact (inv_dispatch_request _ _ _ _ _ I0 (surjective_pairing _)).
  - (* DReply *) exact (inv_reply_out _ _ (proj1 (spec_unbox FUEL args _ _ _ I0 Logic.I (surjective_pairing _)))).
  - (* DException *) exact (inv_reply_out _ _ (proj1 (spec_load_exc (fun _ => True) args _ _ _ I0 Logic.I (surjective_pairing _)))).
  - (* DReplyG *) exact (inv_reply_out _ _ (proj1 (spec_unbox FUEL args _ _ _ I0 Logic.I (surjective_pairing _)))).
  - (* DExceptionG *) exact (inv_reply_out _ _ (proj1 (spec_load_exc (fun _ => True) args _ _ _ I0 Logic.I (surjective_pairing _)))).
  - (* no kind *) destruct (Vinegar.unpack 3 msg); cbn [fst]; auto using inv_end_conn.
Qed.

Theorem inv_handle_msg msg answers s s' o : Inv s -> handle_msg S C HT DT ML UL BL msg answers s = (s', o) -> Inv s'.
Proof.
  intros I. unfold handle_msg. destruct (lost s); [now intros [= <- <-]|].
  pose proof (inv_handle_msg_core msg answers s I) as I1. destruct (handle_msg_core S C HT DT ML UL BL msg answers s) as [s1 o1].
  destruct o1; intros [= <- <-]; exact I1.
Qed.
Lemma inv_step s i : Inv s -> Inv (fst (step S C HT DT ML UL BL s i)).
Proof.
  intros I. destruct i as [m a|f]; cbn [step].
  - destruct (handle_msg S C HT DT ML UL BL m a s) as [s' o] eqn:E. cbn. eapply inv_handle_msg; eauto.
  - cbn. destruct I as [Hw Ht]. split; cbn; [split; [exact Hw|exact Logic.I]|exact Ht].
Qed.
Theorem inv_run l : forall s, Inv s -> Inv (run S C HT DT ML UL BL s l).
Proof. induction l as [|i l IH]; intros s I; cbn; [exact I|]. apply IH. now apply inv_step. Qed.
Lemma inv_init w : Inv (init w).
Proof. split; cbn; [exact Logic.I|reflexivity]. Qed.
Theorem wf_run w l : wf (tr (run S C HT DT ML UL BL (init w) l)).
Proof. exact (proj1 (inv_run l _ (inv_init w))). Qed.
End Inv.

Section Corollaries.
Context {W : Type}.
Variable S : sem W.
Variable C : config.

Lemma wf_event t1 e t2 : wf S C (t1 ++ e :: t2) -> ev_ok S C (ghost_of t2) e.
Proof. induction t1 as [|x t1 IH]; intros H; [exact (proj2 H)|exact (IH (proj1 H))]. Qed.

Definition tbl_objs (t : table) : list oid := map (fun e => snd (fst e)) t.
Lemma tbl_find_objs k t o c : tbl_find k t = Some (o, c) -> In o (tbl_objs t).
Proof.
  induction t as [|[[k' o'] c'] t IH]; cbn; [discriminate|]. destruct (pv_eqb k k').
  - intros [= <- <-]. now left.
  - intros H. right. now apply IH.
Qed.
Lemma tbl_add_objs k o t : incl (tbl_objs (tbl_add k o t)) (o :: tbl_objs t).
Proof.
  induction t as [|[[k' o'] c'] t IH]; cbn; [apply incl_refl|]. destruct (pv_eqb k k'); cbn.
  - apply incl_tl, incl_refl.
  - intros x [<-|H]; [right; now left|]. destruct (IH x H) as [<-|H']; [now left|right; now right].
Qed.
Lemma tbl_decref_objs k n t : incl (tbl_objs (tbl_decref k n t)) (tbl_objs t).
Proof.
  induction t as [|[[k' o'] c'] t IH]; cbn; [apply incl_refl|]. destruct (pv_eqb k k'); cbn.
  - destruct (c' <? n)%Z; cbn; [apply incl_tl, incl_refl|apply incl_refl].
  - intros x [<-|H]; [now left|right; now apply IH].
Qed.
Lemma ghost_tbl_lent t : forall o, In o (tbl_objs (g_tbl (ghost_of t))) -> exists k, In (EBox k o) t.
Proof.
  induction t as [|e t IH]; intros o H; [contradiction|].
  assert (K : In o (tbl_objs (g_tbl (ghost_of t))) -> exists k, In (EBox k o) (e :: t)).
  { intros H'. destruct (IH o H') as (k & Hk). exists k. now right. }
  destruct e; cbn in H; auto.
  - apply tbl_add_objs in H as [<-|H]; [exists k; now left|auto].
  - apply tbl_decref_objs in H. auto.
  - contradiction.
Qed.
(* an event that hands an object out: the root, the table, type() or the result of an operation *)
Definition gives (e : event) (o : oid) : Prop :=
  match e with
  | ERoot o' | EResolve _ o' | EType _ o' => o = o'
  | EAttr _ _ _ ys | EHook _ _ _ ys | ETouch _ _ ys | EForeign ys => In o ys
  | _ => False
  end.
Lemma auth_origin t : forall o, In o (g_auth (ghost_of t)) -> exists e, In e t /\ gives e o.
Proof.
  induction t as [|e t IH]; intros o H; [contradiction|].
  assert (K : In o (g_auth (ghost_of t)) -> exists e', In e' (e :: t) /\ gives e' o).
  { intros H'. destruct (IH o H') as (e' & He & Hg). exists e'. split; [now right|exact Hg]. }
  destruct e; cbn in H; auto; try contradiction;
    try (destruct H as [<-|H]; [eexists; split; [now left|reflexivity]|auto]);
    try (apply in_app_or in H as [H|H]; [eexists; split; [now left|exact H]|auto]).
Qed.

End Corollaries.

Definition touching (e : event) : bool :=
  match e with
  | ETouch _ _ _ | EAttr _ _ _ _ | EHook _ _ _ _ | EEnv => true
  | EProbe _ _ | EDisconnect | EPayload _ _ | ECtx _ _ | EGlobalRead _ => true       (* hasattr probes, on_disconnect, repr()/dir() of exception payloads run service code too *)
  | _ => false
  end.
Definition nt (t : list event) : nat := List.length (filter touching t).
Lemma nt_app t1 t2 : nt (t1 ++ t2) = (nt t1 + nt t2)%nat.
Proof. unfold nt. now rewrite filter_app, app_length. Qed.

Section Frame.
Context {W : Type}.
Variable S : sem W.
Variable C : config.
Variable HT : list (string * hdef).
Variable DT : list (Z * string).
Variable ML : list (Z * dact).
Variable UL : list (Z * uact).
Variable BL : list (string * Z).
(* the names that may reach an object through the default accessor *)
Variable N : text -> Prop.
Notation state := (hst W).
Notation M := (@Hostile.M W).

Definition named (e : event) : Prop := match e with EAttr _ _ final _ => N final | _ => True end.
(* only appended events; accesses by name are of names in N; the service state moves only with a touching event *)
Definition frame (s s' : state) : Prop :=
  exists t, tr s' = t ++ tr s /\ Forall named t /\ (nt t = 0%nat -> wst s' = wst s).
Definition fspec {A} (m : M A) : Prop := forall s s' r, m s = (s', r) -> frame s s'.

Lemma frame_refl s : frame s s. Proof. exists []. auto. Qed.
Lemma frame_trans a b c : frame a b -> frame b c -> frame a c.
Proof.
  intros (t1 & E1 & F1 & W1) (t2 & E2 & F2 & W2). exists (t2 ++ t1). split; [now rewrite E2, E1, app_assoc|].
  split; [now apply Forall_app|]. rewrite nt_app. intros H. rewrite W2, W1 by lia. reflexivity.
Qed.
Lemma frame_same (s s' : state) : tr s' = tr s -> wst s' = wst s -> frame s s'.
Proof. intros Ht Hw. exists []. auto. Qed.
Lemma frame_event (s s' : state) e : tr s' = e :: tr s -> named e -> (touching e = false -> wst s' = wst s) -> frame s s'.
Proof.
  intros Ht Hn Hw. exists [e]. split; [exact Ht|split; [now constructor|]]. unfold nt. cbn. destruct (touching e); [discriminate|auto].
Qed.
Lemma frame_fold {X} (f : X -> event) l : forall s : state, (forall x, In x l -> named (f x)) ->
  frame s (fold_left (fun s x => add_ev s (f x)) l s).
Proof.
  induction l as [|x l IH]; intros s H; cbn; [apply frame_refl|].
  apply (frame_trans _ (add_ev s (f x))); [apply (frame_event s _ (f x)); [reflexivity|apply H; now left|now intros]|apply IH]. intros y Hy. apply H. now right.
Qed.

Lemma f_ret {A} (a : A) : fspec (ret a). Proof. intros s s' r [= <- <-]. apply frame_refl. Qed.
Lemma f_raise {A} x : fspec (@raise W A x). Proof. intros s s' r [= <- <-]. apply frame_refl. Qed.
Lemma f_raise_std {A} e : fspec (@raise_std W A e). Proof. apply f_raise. Qed.
Lemma f_unm {A} : fspec (@unm W A). Proof. intros s s' r [= <- <-]. apply frame_refl. Qed.
Lemma f_lift {A} (r : result A) : fspec (lift r).
Proof. destruct r; cbn [lift]; [apply f_ret|apply f_raise|apply f_unm|apply f_unm]. Qed.
Lemma f_bind {A B} (m : M A) (k : A -> M B) : fspec m -> (forall a, fspec (k a)) -> fspec (mbind m k).
Proof.
  intros Hm Hk s s' r E. unfold mbind in E. destruct (m s) as [s1 [a|x|]] eqn:Em; [|injection E as <- <-; exact (Hm _ _ _ Em)..].
  exact (frame_trans _ _ _ (Hm _ _ _ Em) (Hk a _ _ _ E)).
Qed.
Lemma f_bind_ret {A B} (a : A) (k : A -> M B) : fspec (k a) -> fspec (mbind (ret a) k).
Proof. intros H s s' r E. exact (H s s' r E). Qed.
Lemma f_quiet {A} (m : M A) : quiet m -> fspec m.
Proof. intros Q s s' r E. destruct (Q s) as (s1 & a & E1 & Et & _ & Ew). rewrite E1 in E. injection E as <- <-. now apply frame_same. Qed.
Lemma f_emit e : named e -> fspec (emit e).
Proof. intros H s s' r [= <- <-]. now apply (frame_event s _ e). Qed.
Lemma f_genexpr {A} (m : M A) : fspec m -> fspec (in_genexpr m).
Proof.
  intros H s s' r E. unfold in_genexpr in E. destruct (m s) as [s1 r1] eqn:Em. specialize (H _ _ _ Em).
  destruct r1 as [?|[[]| | | | | |]|]; now injection E as <- <-.
Qed.
Lemma f_try_exc {A} all (m h : M A) : fspec m -> fspec h -> fspec (try_exc all m h).
Proof.
  intros Hm Hh s s' r E. unfold try_exc in E. destruct (m s) as [s1 r1] eqn:E1. pose proof (Hm _ _ _ E1) as Q1.
  destruct r1 as [a|x|]; [now injection E as <- <-| |now injection E as <- <-].
  destruct (all || is_exception x); [|now injection E as <- <-]. exact (frame_trans _ _ _ Q1 (Hh _ _ _ E)).
Qed.
Lemma f_mapM {X Y} (g : X -> M Y) l : (forall x, In x l -> fspec (g x)) -> fspec (mapM g l).
Proof.
  induction l as [|x l IH]; intros Hg; cbn [mapM]; [apply f_ret|].
  apply f_bind; [apply Hg; now left|intros y]. apply f_bind; [apply IH; intros; apply Hg; now right|intros; apply f_ret].
Qed.
Lemma f_touch op o args : fspec (touch S op o args).
Proof.
  intros s s' r E. unfold touch in E. destruct (s_op S (wst s) op o args). injection E as <- <-.
  now eapply frame_event.
Qed.
Lemma f_val_op op v args : fspec (val_op S op v args).
Proof. intros s s' r [= <- <-]. now eapply frame_event. Qed.
Lemma f_resolve k : fspec (@resolve W k).
Proof.
  intros s s' r E. unfold resolve in E.
  destruct (tbl_find k (tbl s)) as [[o c]|]; injection E as <- <-; now eapply frame_event.
Qed.
Lemma f_lend o : fspec (lend S o).
Proof. intros s s' r [= <- <-]. now eapply frame_event. Qed.
Lemma f_cleanup : fspec (@cleanup W).
Proof.
  intros s s' r [= <- <-].
  apply (frame_trans _ (add_ev s EDisconnect)); now eapply frame_event.
Qed.
Lemma f_load_exc payload : fspec (load_exc S C payload).
Proof. intros s s' r E. apply load_exc_trace_carried in E as [-> _]. now apply frame_fold. Qed.
Lemma f_raise_loaded {A} payload : fspec (@raise_loaded W S C A payload).
Proof.
  intros s s' r E. unfold raise_loaded in E. destruct (load_exc S C payload s) as [s1 r1] eqn:El.
  apply f_load_exc in El. destruct r1; now injection E as <- <-.
Qed.
Lemma f_class_walk n : fspec (class_walk S C n).
Proof.
  intros s s' r [= <- <-]. apply (frame_fold (fun e => e)). intros e He. apply in_app_or in He as [He|He].
  - now apply in_map_iff in He as (m & <- & _).
  - unfold class_global in He. destruct (c_cls_reads C); [|contradiction]. destruct (assoc_txt n (s_globals S)); [|contradiction]. now destruct He as [<-|[]].
Qed.

Hint Resolve f_ret f_raise f_raise_std f_unm f_lift f_bind f_quiet f_emit f_genexpr f_try_exc f_touch f_val_op f_resolve f_lend
  f_cleanup f_raise_loaded f_class_walk : frame.
Hint Extern 1 (named _) => exact Logic.I : frame.
(* case analyses of the interpreter are followed into every branch.  [auto 30]: one step per bind or match along a path
   of a body; the longest (unbox's proxy branch) has fewer *)
Hint Extern 2 (fspec (match ?x with _ => _ end)) => destruct x : frame.

Lemma f_box f : forall v, fspec (box S BL f v).
Proof.
  induction f as [|f IH]; intros v; cbn [box]; [apply f_unm|].
  destruct (as_value v); [apply f_ret|]. destruct v; auto with frame quiet.
  apply f_bind; [now apply (f_mapM (box S BL f))|auto with frame].
Qed.
Lemma f_unbox f : forall pkg, fspec (unbox S C UL f pkg).
Proof.
  induction f as [|f IH]; intros pkg; cbn [unbox]; [apply f_unm|].
  apply f_bind; [apply f_lift|intros lv]. destruct lv as [|label [|value [|? ?]]]; try apply f_raise.
  destruct (match num_of label with Some z => assoc_z z UL | None => None end) as [[| | |]|]; auto 30 with frame quiet.
  (* UTuple *) apply f_bind; [apply f_lift|intros items].
  assert (G : fspec (mbind (mapM (fun x => in_genexpr (unbox S C UL f x)) items) (fun l => ret (LT l))))
    by (apply f_bind; [apply f_mapM|]; auto with frame).
  destruct value; try exact G. destruct items as [|? [|? ?]]; try exact G. apply f_unm.
Qed.
Lemma f_ask h args : fspec (ask S C UL BL h args).
Proof. unfold ask. auto 30 using f_box, f_unbox with frame quiet. Qed.
Lemma f_converse h args : fspec (converse S C UL BL h args).
Proof. unfold converse. auto using f_ask with frame quiet. Qed.
Hint Resolve f_converse : frame.
Lemma f_iter v : fspec (iter_lval S C UL BL v). Proof. destruct v; cbn [iter_lval]; auto 30 with frame. Qed.
Lemma f_kw v : fspec (kw_lval S C UL BL v). Proof. destruct v; cbn [kw_lval]; auto 30 with frame. Qed.
Lemma f_truthy v : fspec (truthy S C UL BL v). Proof. destruct v; cbn [truthy]; auto 30 with frame. Qed.
Lemma f_islice b : fspec (islice_count S C UL BL b). Proof. destruct b; cbn [islice_count]; auto 30 with frame. Qed.
Hint Resolve f_iter f_kw f_truthy f_islice : frame.
Lemma f_access p g tgt nm extra : (forall final, guard_ok g final = true -> N final) -> fspec (access S C UL BL p g tgt nm extra).
Proof.
  intros Hg. destruct tgt; cbn [access]; auto 30 with frame.
  intros s s' r E.
  pose proof (frame_fold (fun e => EProbe o (ev_name e)) (probes_of (c_attr C) p (pyname_of nm) (s_view S (wst s) o)) s (fun _ _ => Logic.I)) as Q1.
  destruct (decide (c_guard C) (c_attr C) p (pyname_of nm) (s_view S (wst s) o)) as [[n|final]|e| |]; try (now injection E as <- <-).
  - destruct (s_hook S _ o p n extra). injection E as <- <-. eapply frame_trans; [exact Q1|now eapply frame_event].
  - destruct (guard_ok g final) eqn:G; [|now injection E as <- <-].
    destruct (s_attr S _ o p final extra). injection E as <- <-. eapply frame_trans; [exact Q1|]. eapply frame_event; [reflexivity|exact (Hg _ G)|discriminate].
Qed.
Lemma f_do_op op a b : fspec (do_op S C UL BL op a b).
Proof. destruct op; cbn [do_op]; auto 30 with frame quiet. Qed.
Lemma f_decref k c : fspec (decref S k c).
Proof.
  destruct k; cbn [decref]; auto with frame.
  intros s s' r E. destruct (tbl_find v (tbl s)) as [[o cnt]|]; [|injection E as <- <-; now eapply frame_event].
  destruct c as [[]| | | | | |]; try (injection E as <- <-; first [apply frame_refl | now eapply frame_event]).
  revert E. apply (f_bind (touch S OpCmp o0 []) (fun _ => unm)); auto with frame.
Qed.
Lemma f_ctx_raise load v : fspec (ctx_raise S C UL BL load v).
Proof. unfold ctx_raise. auto 30 with frame. Qed.
Hint Resolve f_do_op f_decref f_ctx_raise : frame.

(* every accessor in e has a guard that admits names in N only *)
Fixpoint guarded (e : hexp) : Prop :=
  match e with
  | XAccess _ g o n x => (forall final, guard_ok g final = true -> N final) /\ guarded o /\ guarded n /\ guarded x
  | XOp _ a b | XTupCons a b | XLet a b | XSlice a b | XDecref a b | XTryExc a b => guarded a /\ guarded b
  | XGuardCfg _ _ a | XType a | XLookup a | XCtxArgs _ _ a => guarded a
  | XCall f p st k => guarded f /\ guarded p /\ guarded st /\ guarded k
  | XIfNone c t e | XIfHasConn _ c t e => guarded c /\ guarded t /\ guarded e
  | XForward c _ a => guarded c /\ guarded a
  | _ => True
  end.
Definition hdef_guarded (d : hdef) : Prop := guarded (h_body d) /\ Forall guarded (h_defaults d).

Lemma f_eval e : guarded e -> forall env loc, fspec (eval S C UL BL env loc e).
Proof.
  (* every constructor: sub-expressions by the IHs, XAccess by f_access with the guard from [guarded], the rest by the hints *)
  induction e; cbn [eval guarded]; intros G env loc; decompose [and] G; auto 30 using f_access with frame quiet.
Qed.
Lemma f_run_handler d args : hdef_guarded d -> fspec (run_handler S C UL BL d args).
Proof.
  intros [Hb Hd]. unfold run_handler. apply f_bind; [apply f_iter|intros l]. cbn zeta. destruct (_ || _); [apply f_raise|].
  rewrite eval_list_mapM. apply f_bind; [apply f_mapM; intros e He; apply f_eval|intros; now apply f_eval].
  exact (proj1 (Forall_forall _ _) (Forall_skipn _ _ _ Hd) e He).
Qed.
Lemma f_call_handler hv args : (forall d, find_handler HT DT hv = Some d -> hdef_guarded d) ->
  fspec (call_handler S C HT DT UL BL hv args).
Proof.
  intros Hd. rewrite call_handler_eq.
  destruct hv; try apply f_unm; (destruct (find_handler HT DT _) as [d|]; [apply f_run_handler; now apply Hd|apply f_raise]).
Qed.
Lemma f_request raw : (forall h pkg d, Vinegar.unpack 2 raw = Ok [h; pkg] -> find_handler HT DT h = Some d -> hdef_guarded d) ->
  fspec (request_body S C HT DT UL BL raw).
Proof.
  intros Hd. unfold request_body. destruct (Vinegar.unpack 2 raw) as [ha| | |]; cbn [lift]; [|intros s s' r [= <- <-]; apply frame_refl..].
  apply f_bind_ret. destruct ha as [|h [|pkg [|? ?]]]; try apply f_raise.
  apply f_bind; [apply f_unbox|intros]. apply f_call_handler. exact (fun d => Hd h pkg d eq_refl).
Qed.
Lemma frame_end_conn (s : state) : frame s (end_conn s).
Proof. unfold end_conn. destruct (closed s); [apply frame_refl|]. exact (f_cleanup s _ _ (surjective_pairing _)). Qed.
Lemma payload_named x (cs : list (oid * nop)) e : In e (tb_events x ++ map (fun c => ECtx (fst c) (snd c)) cs ++ dump_events S x) -> named e.
Proof. intros He. now destruct (payload_event_shape S x cs e He) as [(o & op & -> & _)|(o & op & ->)]. Qed.
(* a request for a guarded handler accesses names in N only, whatever its arguments *)
Theorem frame_dispatch_request seq raw (s s' : state) o :
  (forall h pkg d, Vinegar.unpack 2 raw = Ok [h; pkg] -> find_handler HT DT h = Some d -> hdef_guarded d) ->
  dispatch_request S C HT DT UL BL seq raw s = (s', o) -> frame s s'.
Proof.
  intros Hd E. unfold dispatch_request in E. fold (request_body S C HT DT UL BL raw) in E.
  destruct (request_body S C HT DT UL BL raw s) as [s1 r1] eqn:Em. pose proof (f_request raw Hd _ _ _ Em) as Q1.
  destruct r1 as [v|x|]; [| |now injection E as <- <-]; (destruct (closed s1); [now injection E as <- <-|]).
  - destruct (box S BL FUEL v s1) as [s2 r2] eqn:Eb. apply f_box in Eb.
    destruct r2; injection E as <- <-; exact (frame_trans _ _ _ Q1 Eb).
  - destruct (propagates C x); injection E as <- <-; apply (frame_trans _ _ _ Q1); [apply frame_end_conn|].
    apply (frame_fold (fun e => e)). apply payload_named.
Qed.

Hypothesis HG : forall hv d, find_handler HT DT hv = Some d -> hdef_guarded d.
Lemma frame_reply_out {A} esc (s : state) (sr : state * res A) : frame s (fst sr) -> frame s (fst (reply_out esc sr)).
Proof.
  destruct sr as [s1 [a|x|]]; cbn [reply_out]; try destruct (esc x); cbn [fst]; auto. intros Q. exact (frame_trans _ _ _ Q (frame_end_conn s1)).
Qed.
Lemma frame_handle_msg_core msg answers (s : state) : frame s (fst (handle_msg_core S C HT DT ML UL BL msg answers s)).
Proof.
  destruct (closed s) eqn:Hc; [unfold handle_msg_core; rewrite Hc; apply frame_refl|]. rewrite handle_msg_core_kind by exact Hc. cbn zeta.
  assert (Q0 : frame s (msg_start s answers)) by (now eapply frame_event).
  assert (QE : frame s (end_conn (msg_start s answers))) by exact (frame_trans _ _ _ Q0 (frame_end_conn _)).
  destruct (kind_of ML msg) as [[[[] seq] args]|].
  - (* DRequest *) apply (frame_trans _ _ _ Q0). exact (frame_dispatch_request _ _ _ _ _ (fun h _ d _ => HG h d) (surjective_pairing _)).
  - (* DReply *) apply frame_reply_out, (frame_trans _ _ _ Q0). exact (f_unbox _ _ _ _ _ (surjective_pairing _)).
  - (* DException *) apply frame_reply_out, (frame_trans _ _ _ Q0). exact (f_load_exc _ _ _ _ (surjective_pairing _)).
  - (* DReplyG *) apply frame_reply_out, (frame_trans _ _ _ Q0). exact (f_unbox _ _ _ _ _ (surjective_pairing _)).
  - (* DExceptionG *) apply frame_reply_out, (frame_trans _ _ _ Q0). exact (f_load_exc _ _ _ _ (surjective_pairing _)).
  - (* no kind *) destruct (Vinegar.unpack 3 msg); cbn [fst]; assumption.
Qed.
Theorem frame_handle_msg msg answers (s s' : state) o : handle_msg S C HT DT ML UL BL msg answers s = (s', o) -> frame s s'.
Proof.
  unfold handle_msg. destruct (lost s); [intros [= <- <-]; apply frame_refl|].
  pose proof (frame_handle_msg_core msg answers s) as Q. destruct (handle_msg_core S C HT DT ML UL BL msg answers s) as [s1 o1].
  destruct o1; intros [= <- <-]; exact Q.
Qed.
End Frame.

Lemma guarded_any e : guarded (fun _ => True) e.
Proof. induction e; cbn; auto. Qed.
(* a message whose handling adds no touching event leaves the service state as it was *)
Theorem q_handle_msg {W} (S : sem W) C HT DT ML UL BL msg answers (s s' : hst W) o :
  handle_msg S C HT DT ML UL BL msg answers s = (s', o) ->
  (nt (tr s) <= nt (tr s'))%nat /\ (nt (tr s') = nt (tr s) -> wst s' = wst s).
Proof.
  intros E.
  assert (HG : forall hv d, find_handler HT DT hv = Some d -> hdef_guarded (fun _ => True) d)
    by (intros hv d _; split; [apply guarded_any|]; apply Forall_forall; intros e _; apply guarded_any).
  destruct (frame_handle_msg S C HT DT ML UL BL (fun _ => True) HG _ _ _ _ _ E) as (t & -> & _ & Hw).
  rewrite nt_app. split; [lia|]. intros H. apply Hw. lia.
Qed.

Section Guard.
Context {W : Type}.
Variable names : list string.
Notation state := (hst W).

Definition listed (e : event) : Prop :=
  match e with EAttr _ _ final _ => exists n, In n names /\ final = txt n | _ => True end.
(* the events added between two states are all [listed] *)
Definition arel (s s' : state) : Prop := exists t, tr s' = t ++ tr s /\ Forall listed t.

Lemma guard_ok_listed final : guard_ok (Some names) final = true -> exists n, In n names /\ final = txt n.
Proof. cbn. intros G. apply existsb_exists in G as (a & Ha & Et). apply text_eqb_eq in Et. eauto. Qed.
End Guard.

Theorem guarded_request_listed {W} (S : sem W) C HT DT UL BL names seq raw (s s' : hst W) o :
  (forall h pkg d, Vinegar.unpack 2 raw = Ok [h; pkg] -> find_handler HT DT h = Some d ->
                   hdef_guarded (fun final => exists n, In n names /\ final = txt n) d) ->
  dispatch_request S C HT DT UL BL seq raw s = (s', o) -> arel names s s'.
Proof. intros Hd E. destruct (frame_dispatch_request S C HT DT UL BL _ seq raw s s' o Hd E) as (t & Et & Ft & _). now exists t. Qed.

Section Outcome.
Context {W : Type}.
Variable S : sem W.
Variable C : config.
Variable HT : list (string * hdef).
Variable DT : list (Z * string).
Variable ML : list (Z * dact).
Variable UL : list (Z * uact).
Variable BL : list (string * Z).

(* handle_msg = handle_msg_core, except that an unmodelled outcome is remembered *)
Lemma handle_msg_core_eq msg answers (s s' : hst W) o : lost s = false ->
  handle_msg S C HT DT ML UL BL msg answers s = (s', o) ->
  exists s1, handle_msg_core S C HT DT ML UL BL msg answers s = (s1, o) /\ closed s' = closed s1 /\ (o <> OUnm -> s' = s1).
Proof.
  intros Hl E. unfold handle_msg in E. rewrite Hl in E.
  destruct (handle_msg_core S C HT DT ML UL BL msg answers s) as [s1 o1]. exists s1.
  destruct o1; injection E as <- <-; (split; [reflexivity|split; [reflexivity|]]); try reflexivity; intros H; now elim H.
Qed.
(* a request is answered under its own sequence number, or the connection ends (a propagated local
   KeyboardInterrupt/SystemExit, or the peer's close request) *)
Lemma dispatch_outcome seq raw (s s' : hst W) o : dispatch_request S C HT DT UL BL seq raw s = (s', o) ->
  (exists p, o = OReply seq p) \/ (exists x, o = OExc seq x /\ propagates C x = false) \/
  (exists x, o = OEnd x /\ propagates C x = true /\ closed s' = true) \/ (o = OClosed /\ closed s' = true) \/ o = OUnm.
Proof.
  unfold dispatch_request. destruct (mbind _ _ s) as [s1 [v|x|]]; [| |intros [= <- <-]; auto 6];
    (destruct (closed s1) eqn:Ec; [intros [= <- <-]; auto 6|]).
  - destruct (box S BL FUEL v s1) as [s2 [p| |]]; intros [= <- <-]; eauto 6.
  - destruct (propagates C x) eqn:Ep; intros [= <- <-]; eauto 8 using end_conn_closed.
Qed.
Theorem request_outcome msg answers (s s' : hst W) o seq args :
  lost s = false -> closed s = false -> kind_of ML msg = Some (DRequest, seq, args) ->
  handle_msg S C HT DT ML UL BL msg answers s = (s', o) ->
  (exists p, o = OReply seq p) \/ (exists x, o = OExc seq x /\ propagates C x = false) \/
  (exists x, o = OEnd x /\ propagates C x = true /\ closed s' = true) \/ (o = OClosed /\ closed s' = true) \/ o = OUnm.
Proof.
  intros Hl Hc Hk E. destruct (handle_msg_core_eq _ _ _ _ _ Hl E) as (s1 & E1 & -> & _).
  rewrite handle_msg_core_kind, Hk in E1 by exact Hc. exact (dispatch_outcome _ _ _ _ _ E1).
Qed.
(* _dispatch_response delivers a response that cannot be rebuilt to the request it answers (dropped when none waits); only
   EOFError or a non-Exception leaves serve() *)
Theorem guarded_response_outcome msg answers (s s' : hst W) o d seq args :
  lost s = false -> closed s = false -> kind_of ML msg = Some (d, seq, args) -> d = DReplyG \/ d = DExceptionG ->
  handle_msg S C HT DT ML UL BL msg answers s = (s', o) ->
  o = OIgnored \/ (exists x, o = OEnd x /\ escapes_response x = true /\ closed s' = true) \/ o = OUnm.
Proof.
  intros Hl Hc Hk Hd E. destruct (handle_msg_core_eq _ _ _ _ _ Hl E) as (s1 & E1 & -> & _).
  rewrite handle_msg_core_kind, Hk in E1 by exact Hc. destruct Hd as [-> | ->]; exact (reply_out_outcome _ _ _ _ E1).
Qed.
(* anything else is never answered: it is dropped or this connection ends *)
Theorem other_outcome msg answers (s s' : hst W) o :
  lost s = false -> closed s = false -> (forall seq args, kind_of ML msg <> Some (DRequest, seq, args)) ->
  handle_msg S C HT DT ML UL BL msg answers s = (s', o) ->
  o = OIgnored \/ (exists x, o = OEnd x /\ closed s' = true) \/ o = OUnm.
Proof.
  intros Hl Hc Hk E. destruct (handle_msg_core_eq _ _ _ _ _ Hl E) as (s1 & E1 & -> & _).
  rewrite handle_msg_core_kind in E1 by exact Hc. cbn zeta in E1.
  destruct (kind_of ML msg) as [[[d seq] args]|].
  - destruct d; [now elim (Hk seq args)|apply reply_out_outcome in E1 as [?|[(x & ? & _ & ?)|?]]; eauto..].
  - destruct (Vinegar.unpack 3 msg); injection E1 as <- <-; eauto using end_conn_closed.
Qed.
Theorem dead_outcome msg answers (s s' : hst W) o :
  lost s = false -> closed s = true -> handle_msg S C HT DT ML UL BL msg answers s = (s', o) -> o = ODead /\ s' = s.
Proof.
  intros Hl Hc E. destruct (handle_msg_core_eq _ _ _ _ _ Hl E) as (s1 & E1 & _ & Hs).
  unfold handle_msg_core in E1. rewrite Hc in E1. injection E1 as <- <-. split; [reflexivity|]. apply Hs. discriminate.
Qed.
(* after an unmodelled message every outcome is OUnm and nothing changes *)
Theorem lost_is_absorbing msg answers (s : hst W) : lost s = true -> handle_msg S C HT DT ML UL BL msg answers s = (s, OUnm).
Proof. intros H. unfold handle_msg. now rewrite H. Qed.
Theorem unmodelled_sets_lost msg answers (s s' : hst W) : handle_msg S C HT DT ML UL BL msg answers s = (s', OUnm) -> lost s' = true.
Proof.
  unfold handle_msg. destruct (lost s) eqn:Hl; [now intros [= <-]|].
  destruct (handle_msg_core S C HT DT ML UL BL msg answers s) as [s1 o1]. destruct o1; intros [= <-]; reflexivity.
Qed.
Lemma unbox_forged f key (s : hst W) : tbl_find key (tbl s) = None -> assoc_z 3 UL = Some ULocal ->
  unbox S C UL (Datatypes.S f) (PTuple [PInt 3; key]) s = (add_ev s (EMiss key), RRaise (XStd KeyError)).
Proof.
  intros F U. cbn [unbox]. unfold mbind, lift. cbn. rewrite U. unfold resolve. now rewrite F.
Qed.
End Outcome.

(* a checkable form of "no pickling outside the guard" *)
Definition table_pkb (c : bool) (ht : list (string * hdef)) : bool :=
  forallb (fun nd => pk c (h_body (snd nd)) && forallb (pk c) (h_defaults (snd nd))) ht.
Lemma table_pkb_sound C HT : table_pkb (c_pickle C) HT = true -> table_pk C HT.
Proof.
  unfold table_pkb, table_pk. rewrite forallb_forall. intros H n d Hin. specialize (H _ Hin). cbn in H.
  apply andb_prop in H as [Hb Hd]. split; [exact Hb|]. rewrite forallb_forall in Hd. now apply Forall_forall.
Qed.

Section Final.
Context {W : Type}.
Variable S : sem W.
Variable C : config.
Variable HT : list (string * hdef).
Variable DT : list (Z * string).
Variable ML : list (Z * dact).
Variable UL : list (Z * uact).
Variable BL : list (string * Z).
Hypothesis Sval : val_closed S.
Hypothesis HTpk : table_pk C HT.
Notation RUN w l := (run S C HT DT ML UL BL (init w) l).

Theorem trace_event_ok w l t1 e t2 : tr (RUN w l) = t1 ++ e :: t2 -> ev_ok S C (ghost_of t2) e.
Proof. intros E. apply (wf_event S C t1). rewrite <- E. now apply wf_run. Qed.

(* references resolve through this connection's table, which holds only what was lent on it *)
Theorem resolve_only_lent w l t1 k o t2 : tr (RUN w l) = t1 ++ EResolve k o :: t2 ->
  (exists c, tbl_find k (g_tbl (ghost_of t2)) = Some (o, c)) /\ exists k', In (EBox k' o) t2.
Proof.
  intros E. pose proof (trace_event_ok _ _ _ _ _ E) as [c Hc]. split; [eauto|].
  apply ghost_tbl_lent. eapply tbl_find_objs; eauto.
Qed.
Theorem miss_not_lent w l t1 k t2 : tr (RUN w l) = t1 ++ EMiss k :: t2 -> tbl_find k (g_tbl (ghost_of t2)) = None.
Proof. intros E. exact (trace_event_ok _ _ _ _ _ E). Qed.
(* the table is at any moment the replay of the lend / release / clear events *)
Theorem table_is_replay w l : tbl (RUN w l) = g_tbl (ghost_of (tr (RUN w l))).
Proof. symmetry. exact (proj2 (inv_run S C HT DT ML UL BL Sval HTpk l _ (inv_init S C w))). Qed.

(* the target of an event is held by the current request ([g_auth] is emptied by EMsg), and some earlier event of the
   trace handed it out *)
Definition target (e : event) : option oid :=
  match e with
  | EProbe o _ | EAttr o _ _ _ | EHook o _ _ _ | ETouch o _ _ | EBox _ o | EType o _ | EPayload o _ => Some o
  | _ => None
  end.
Theorem touched_only_held w l t1 e t2 o : tr (RUN w l) = t1 ++ e :: t2 -> target e = Some o ->
  In o (g_auth (ghost_of t2)) /\ exists e', In e' t2 /\ gives e' o.
Proof.
  intros E T. pose proof (trace_event_ok _ _ _ _ _ E) as H.
  assert (A : In o (g_auth (ghost_of t2))) by (destruct e; cbn in T; try discriminate; injection T as <-; cbn in H; tauto).
  split; [exact A|now apply auth_origin].
Qed.
(* pickling needs allow_pickle *)
Theorem pickle_needs_switch w l t1 o ys t2 : tr (RUN w l) = t1 ++ ETouch o OpPickle ys :: t2 -> c_pickle C = true.
Proof. intros E. pose proof (trace_event_ok _ _ _ _ _ E) as [_ H]. now apply H. Qed.
(* netref.class_factory runs a module-level __getattr__ hook for a peer-declared name only if it reads the class with getattr
   (generated fact c_cls_mode), not with the module's __dict__ *)
Theorem class_hook_needs_getattr w l t1 m t2 : tr (RUN w l) = t1 ++ ECls m :: t2 ->
  Vinegar.hooks_run (c_cls_mode C) (c_rflags C) = true.
Proof. intros E. exact (trace_event_ok _ _ _ _ _ E). Qed.
(* class_factory reads attributes of a module global a peer names (never lent) only in the form that tests the object
   itself (generated fact c_cls_reads) *)
Theorem class_global_read_needs_form w l t1 o t2 : tr (RUN w l) = t1 ++ EGlobalRead o :: t2 -> c_cls_reads C = true.
Proof. intros E. exact (trace_event_ok _ _ _ _ _ E). Qed.
(* what an exception record can make vinegar.load do (an import needs import_custom, or instantiate_custom through a
   module-level __getattr__: props/C09.v 3a/3b) *)
Theorem vinegar_effects w l t1 v t2 : tr (RUN w l) = t1 ++ EVin v :: t2 ->
  (forall m, v = Vinegar.EImport m -> Vinegar.import_custom (c_rflags C) = true \/ Vinegar.inst_custom (c_rflags C) = true) /\
  (forall c, v <> Vinegar.EInit c) /\
  (forall c, v = Vinegar.ENew (Vinegar.Real c) -> Vinegar.inst_custom (c_rflags C) = false ->
             exists n ok, Vinegar.assoc n (Vinegar.builtins_ns (s_env S)) = Some (Vinegar.AExc c ok)).
Proof.
  intros E. pose proof (trace_event_ok _ _ _ _ _ E) as [payload H]. repeat split.
  - intros m ->. destruct (VinegarP.import_only_two_ways _ _ _ _ _ H) as [[A _]|[_ A]]; [now left|now right].
  - intros c ->. exact (VinegarP.never_init _ _ _ _ _ H).
  - intros c -> Hi. exact (VinegarP.new_only_builtin _ _ _ _ _ Hi H).
Qed.
End Final.

(* under the default configuration: by-name accesses are reads of exposed_/safe names (or the object's own hook decides) *)
Definition allowed_default (n : text) : Prop := starts_with (txt "exposed_") n = true \/ In n (map txt default_safe).
(* _access_attr decides on the hook exactly when the object's type defines one *)
Lemma decide_default_hook g c p pn vw final : decide g c p pn vw = Ok (ViaDefault final) -> hook_for vw p = false.
Proof.
  unfold decide, access_attr. destruct (nkind_of pn); try discriminate; destruct (hook_for vw p); try reflexivity; cbn; discriminate.
Qed.
Lemma decide_hook_defined g c p pn vw n : decide g c p pn vw = Ok (ViaHook n) -> hook_for vw p = true.
Proof.
  unfold decide, access_attr. destruct (nkind_of pn); try discriminate; destruct (hook_for vw p); try reflexivity;
    match goal with |- context [check_attr ?a ?b ?c ?d ?e] => destruct (check_attr a b c d e) as [[]| | |] end; cbn; discriminate.
Qed.
Lemma starts_with_app p n : starts_with p (p ++ n) = true.
Proof. induction p as [|x p IH]; cbn; [reflexivity|]. now rewrite N.eqb_refl, IH. Qed.
Lemma default_decision p pn vw final :
  decide true (c_attr default_config) p pn vw = Ok (ViaDefault final) ->
  p = PGet /\ allowed_default final.
Proof.
  intros D. pose proof (decide_default_hook _ _ _ _ _ _ D) as Hh.
  rewrite decide_is_spec in D by (now left). apply (spec_sound _ _ _ _ _ Hh) in D as (_ & Hp & Hn). split.
  - destruct p; [reflexivity|discriminate Hp|discriminate Hp].
  - destruct Hn as [[-> Ha]|[-> _]].
    + destruct Ha as [Ha|[[_ Ha]|[[_ Ha]|[Ha _]]]]; [discriminate Ha|now left|now right|discriminate Ha].
    + left. apply starts_with_app.
Qed.
Lemma probe_names c p pn vw n : allow_all (sw c) = false -> allow_public (sw c) = false ->
  In (EGet n) (probes_of c p pn vw) -> starts_with (exposed_prefix c) n = true \/ In n (safe_attrs c).
Proof.
  intros Hall Hpub. unfold probes_of, check_probes. rewrite Hall, Hpub.
  destruct (nkind_of pn); try contradiction; (destruct (hook_for vw p); [contradiction|]);
    (destruct (negb (lookup_perm (sw c) p)); [contradiction|]);
    intros H; apply in_map_iff in H as (q & Hq & Hin); apply in_app_or in Hin as [Hin|Hin];
    match type of Hin with In _ (if ?b then _ else _) => destruct b eqn:B end; try contradiction;
    destruct Hin as [<-|[]]; injection Hq as <-; try (left; apply starts_with_app);
    apply andb_prop in B as [B _]; cbn [nview_of starts_prefix in_safe orb andb] in B; rewrite orb_false_r in B;
    (apply orb_prop in B as [B|B]; apply andb_prop in B as [_ B]; [now left|right; now apply mem_In]).
Qed.

Lemma unbox_tuple_first_raises {W} (S : sem W) C UL f x rest (s s1 : hst W) y : assoc_z 2 UL = Some UTuple ->
  unbox S C UL f x s = (s1, RRaise y) -> y <> XStd StopIteration ->
  unbox S C UL (Datatypes.S f) (PTuple [PInt 2; PTuple (x :: rest)]) s = (s1, RRaise y).
Proof.
  intros U E Hy. cbn [unbox]. unfold mbind, lift. cbn. rewrite U. cbn. unfold in_genexpr. rewrite E.
  destruct y as [[]| | | | | |]; try reflexivity. now elim Hy.
Qed.
(* a first argument that refers to a key not in this connection's table (forged, released, harvested elsewhere): KeyError
   under the request's own sequence number *)
Lemma unbox_first_miss {W} (S : sem W) C f key rest (s : hst W) : tbl_find key (tbl s) = None ->
  unbox S C unbox_ladder (Datatypes.S (Datatypes.S f)) (PTuple [PInt 2; PTuple (PTuple [PInt 3; key] :: rest)]) s
  = (add_ev s (EMiss key), RRaise (XStd KeyError)).
Proof. intros F. apply unbox_tuple_first_raises; [reflexivity|now apply unbox_forged|discriminate]. Qed.
Theorem forged_reference_refused {W} (S : sem W) C HT DT (s : hst W) seq h key rest answers :
  lost s = false -> closed s = false -> tbl_find key (tbl s) = None ->
  let msg := PTuple [PInt 1; seq; PTuple [h; PTuple [PInt 2; PTuple (PTuple [PInt 3; key] :: rest)]]] in
  exists s', handle_msg S C HT DT msg_ladder unbox_ladder box_ladder msg answers s = (s', OExc seq (XStd KeyError))
    /\ wst s' = wst s /\ tbl s' = tbl s /\ tr s' = EMiss key :: EMsg :: tr s /\ closed s' = false.
Proof.
  intros Hl Hc F msg. subst msg. unfold handle_msg. rewrite Hl. unfold handle_msg_core. rewrite Hc.
  cbn [Vinegar.unpack iter_elems bind List.length Nat.eqb num_of assoc_z msg_ladder Z.eqb].
  unfold dispatch_request. unfold mbind at 1. cbn [Vinegar.unpack iter_elems bind List.length Nat.eqb lift ret].
  unfold mbind at 1. change FUEL with (Datatypes.S (Datatypes.S 62)).  (* FUEL = 64; unbox_first_miss spends two levels *)
  rewrite (unbox_first_miss S C 62 key rest (with_ctxs (with_script (add_ev s EMsg) answers) [])) by exact F.
  cbn [closed with_script add_ev with_tr with_ctxs]. rewrite Hc. cbn [propagates].
  eexists. split; [reflexivity|]. cbn. auto.
Qed.

(* the finite canary world of the harness meets the hypothesis on plain-value operations *)
Lemma world_sem_val_closed w excs mods globs : val_closed (world_sem w excs mods globs).
Proof.
  intros op v args. cbn [s_val world_sem]. destruct op; cbn; try apply incl_nil_l.
  destruct v; cbn; try apply incl_nil_l. destruct l; cbn; apply incl_nil_l.
Qed.

