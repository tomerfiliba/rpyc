(* Proofs about model/Server.v: invariants of every reachable state, for all histories of events
   (clients sending any bytes, leaving gracefully or abruptly, any interleaving of the server's threads, close at any point). *)
From V Require Import lib.Base lib.Sx model.Server.

Lemma mem_In c l : mem c l = true <-> In c l.
Proof. apply existsb_eqb_in, Nat.eqb_eq. Qed.
Lemma mem_app c a b : mem c (a ++ b) = mem c a || mem c b.
Proof. unfold mem. apply existsb_app. Qed.
Lemma mem_one c x : mem c [x] = Nat.eqb c x.
Proof. cbn. now rewrite orb_false_r. Qed.
Lemma mem_rm c d l : mem c (rm d l) = negb (Nat.eqb c d) && mem c l.
Proof.
  apply eq_true_iff_eq. unfold rm. rewrite andb_true_iff, !mem_In, filter_In, !negb_true_iff, !Nat.eqb_neq. intuition congruence.
Qed.
Lemma mem_rm_same c l : mem c (rm c l) = false.
Proof. now rewrite mem_rm, Nat.eqb_refl. Qed.
Lemma mem_rm_other c d l : c <> d -> mem c (rm d l) = mem c l.
Proof. intros N. apply Nat.eqb_neq in N. now rewrite mem_rm, N. Qed.
Lemma mem_snoc_other c d l : c <> d -> mem c (l ++ [d]) = mem c l.
Proof. intros N. apply Nat.eqb_neq in N. now rewrite mem_app, mem_one, N, orb_false_r. Qed.
Lemma mem_snoc_same c l : mem c (l ++ [c]) = true.
Proof. now rewrite mem_app, mem_one, Nat.eqb_refl, orb_true_r. Qed.
Lemma rm_nil_of_nil d : rm d [] = [].
Proof. reflexivity. Qed.
Lemma rm_nil c l : l = [] -> rm c l = [].
Proof. now intros ->. Qed.
Lemma rm_of_nil c l : l = [] -> rm c l = [].
Proof. apply rm_nil. Qed.
Lemma NoDup_nil_cid : NoDup (@nil cid). Proof. constructor. Qed.

Lemma nth_error_set_nth {A} (l : list A) w v w' : nth_error (set_nth w v l) w' = if Nat.eqb w' w then (match nth_error l w with Some _ => Some v | None => None end) else nth_error l w'.
Proof.
  revert w w'. induction l as [|y l IH]; intros [|w] [|w']; cbn; try reflexivity.
  - destruct (Nat.eqb w' w); reflexivity.
  - apply IH.
Qed.

Lemma upd_same f c k : upd f c k c = k.
Proof. unfold upd. now rewrite Nat.eqb_refl. Qed.
Lemma upd_other f c d k : d <> c -> upd f c k d = f d.
Proof. unfold upd. intros H. apply Nat.eqb_neq in H. now rewrite H. Qed.

Ltac conn_at x c :=
  destruct (Nat.eq_dec x c) as [->|?]; [rewrite ?upd_same|rewrite ?upd_other by assumption].

Section P.
Variable decomp : list byte -> option (list byte).
Variable decode : list byte -> option req.
Variable K : cfg.
Notation step := (Server.step decomp decode K).
Notation reach := (Server.reach decomp decode K).
Notation reach_by := (Server.reach_by decomp decode K).
Notation next_input := (Server.next_input decomp decode).
Notation work := (Server.work decomp decode K).
Notation serve_step := (Server.serve_step decomp decode K).

Lemma close_conn_stg k : stg (close_conn k) = stg k.
Proof. unfold close_conn. destruct (cclosed k || negb (authd k)); reflexivity. Qed.
Lemma close_conn_authd k : authd (close_conn k) = authd k.
Proof. unfold close_conn. destruct (cclosed k || negb (authd k)); reflexivity. Qed.
Lemma close_conn_gone k : gone (close_conn k) = gone k.
Proof. unfold close_conn. destruct (cclosed k || negb (authd k)); reflexivity. Qed.
Lemma close_conn_inb k : inb (close_conn k) = inb k.
Proof. unfold close_conn. destruct (cclosed k || negb (authd k)); reflexivity. Qed.
Lemma close_conn_abeh k : abeh (close_conn k) = abeh k.
Proof. unfold close_conn. destruct (cclosed k || negb (authd k)); reflexivity. Qed.
Lemma close_conn_shut k : shut (close_conn k) = shut k || (authd k && negb (cclosed k)).
Proof. destruct k as [g a au i go sh cc h o t ou hi]. unfold close_conn. cbn. destruct cc, au, sh; reflexivity. Qed.
Lemma close_conn_cclosed k : cclosed (close_conn k) = cclosed k || authd k.
Proof. destruct k as [g a au i go sh cc h o t ou hi]. unfold close_conn. cbn. destruct cc, au; reflexivity. Qed.
Lemma close_conn_hooks k : hooks (close_conn k) = if authd k && negb (cclosed k) then S (hooks k) else hooks k.
Proof. destruct k as [g a au i go sh cc h o t ou hi]. unfold close_conn. cbn. destruct cc, au; reflexivity. Qed.

(* the endpoint part of a connection record *)
Definition ep4 (k : conn) := (own k, table k, out k, hist k).
Lemma ep4_close k : ep4 (close_conn k) = ep4 k.
Proof. unfold close_conn. destruct (cclosed k || negb (authd k)); reflexivity. Qed.

Definition same_tables (s s' : st) : Prop :=
  active s' = active s /\ closed s' = closed s /\ lopen s' = lopen s /\ busy s' = busy s /\ clients s' = clients s
  /\ fdmap s' = fdmap s /\ pollset s' = pollset s /\ queue s' = queue s /\ workers s' = workers s
  /\ accepted s' = accepted s /\ backlog s' = backlog s.
Lemma set_conn_tables s c k : same_tables s (set_conn s c k).
Proof. repeat split. Qed.

Definition served_conn (s : st) (c : cid) (q : req) (rest : list byte) : conn :=
  let k := conns s c in
  let v := if class_svc K then own k else shared s in
  let '(v', tb', r) := serve_req K c v (table k) q in
  let k' := k_served k rest (if class_svc K then v' else own k) tb' r q in
  if is_close q then close_conn k' else k'.
Lemma serve_on_tables s c q rest : same_tables s (serve_on K s c q rest).
Proof.
  unfold serve_on. destruct (serve_req K c _ _ q) as [[v' tb'] r].
  destruct (class_svc K); repeat split.
Qed.
Lemma serve_on_conns s c q rest x : conns (serve_on K s c q rest) x = if Nat.eqb x c then served_conn s c q rest else conns s x.
Proof.
  unfold serve_on, served_conn. destruct (serve_req K c _ _ q) as [[v' tb'] r].
  destruct (class_svc K); reflexivity.
Qed.
Lemma serve_on_same s c q rest : conns (serve_on K s c q rest) c = served_conn s c q rest.
Proof. now rewrite serve_on_conns, Nat.eqb_refl. Qed.
Lemma serve_on_other s c q rest d : d <> c -> conns (serve_on K s c q rest) d = conns s d.
Proof. intros N. apply Nat.eqb_neq in N. now rewrite serve_on_conns, N. Qed.

Lemma served_conn_stg s c q rest : stg (served_conn s c q rest) = stg (conns s c).
Proof.
  unfold served_conn. destruct (serve_req K c _ _ q) as [[v' tb'] r].
  destruct (is_close q); [rewrite close_conn_stg|]; reflexivity.
Qed.
Lemma served_conn_authd s c q rest : authd (served_conn s c q rest) = authd (conns s c).
Proof.
  unfold served_conn. destruct (serve_req K c _ _ q) as [[v' tb'] r].
  destruct (is_close q); [rewrite close_conn_authd|]; reflexivity.
Qed.
Lemma served_conn_gone s c q rest : gone (served_conn s c q rest) = gone (conns s c).
Proof.
  unfold served_conn. destruct (serve_req K c _ _ q) as [[v' tb'] r].
  destruct (is_close q); [rewrite close_conn_gone|]; reflexivity.
Qed.

Definition pool_fix : bool := match kind K with Pool => pool_close_drops (fx K) | _ => false end.
(* what close() does to one connection *)
Definition conn_after_close (s : st) (x : cid) : conn :=
  let k0 := conns s x in
  let k1 := if mem x (backlog s) then k_stage (k_shut k0) Finished else k0 in
  let k2 := if mem x (clients s) then k_shut k1 else k1 in
  if pool_fix && mem x (fdmap s) then k_stage (close_conn k2) Finished else k2.
Lemma sc_again s : closed s = true -> server_close K s = s.
Proof. intros E. unfold server_close. now rewrite E. Qed.
Lemma sc_closed s : closed (server_close K s) = true.
Proof. unfold server_close. destruct (closed s) eqn:E; [exact E|reflexivity]. Qed.
Lemma sc_kept s :
  busy (server_close K s) = busy s /\ queue (server_close K s) = queue s /\ workers (server_close K s) = workers s
  /\ shared (server_close K s) = shared s /\ accepted (server_close K s) = accepted s.
Proof. unfold server_close. destruct (closed s); repeat split. Qed.
Lemma sc_busy s : busy (server_close K s) = busy s.
Proof. apply sc_kept. Qed.
Lemma sc_workers s : workers (server_close K s) = workers s.
Proof. apply sc_kept. Qed.
Lemma sc_accepted s : accepted (server_close K s) = accepted s.
Proof. apply sc_kept. Qed.
Lemma sc_tables s : closed s = false ->
  active (server_close K s) = false /\ lopen (server_close K s) = false /\ clients (server_close K s) = [] /\ backlog (server_close K s) = []
  /\ fdmap (server_close K s) = (if pool_fix then [] else fdmap s) /\ pollset (server_close K s) = (if pool_fix then [] else pollset s).
Proof. intros E. unfold server_close, pool_fix. rewrite E. repeat split. Qed.
Lemma sc_conns s x : closed s = false -> conns (server_close K s) x = conn_after_close s x.
Proof.
  intros E. unfold server_close, conn_after_close, pool_fix. rewrite E. cbn [conns].
  destruct (match kind K with Pool => pool_close_drops (fx K) | _ => false end); cbn [andb];
  unfold drop_all, shut_all, reset_all; destruct (mem x (fdmap s)), (mem x (clients s)), (mem x (backlog s)); reflexivity.
Qed.

(* the worker's `finally`: what it does before a one-shot server closes itself *)
Definition fo_core (c : cid) (s : st) : st :=
  with_clients (set_conn s c (k_stage (k_shut (conns s c)) Finished)) (rm c (clients s)).
Lemma finish_own_eq c s :
  finish_own K c s = match kind K with OneShot => server_close K (with_busy (fo_core c s) None) | _ => fo_core c s end.
Proof. reflexivity. Qed.
Lemma finish_own_spawned c s : kind K <> OneShot -> finish_own K c s = fo_core c s.
Proof. intros N. rewrite finish_own_eq. destruct (kind K); congruence. Qed.

Lemma drop_eq c s :
  drop c s = if mem c (fdmap s)
             then with_pool (set_conn s c (k_stage (close_conn (conns s c)) Finished)) (rm c (fdmap s)) (pollset s) (queue s) (workers s)
             else s.
Proof. reflexivity. Qed.

(* accept: the socket joins Server.clients; what _accept_method makes of it depends on the kind of server *)
Definition accept_base (c : cid) (rest : list cid) (s : st) : st :=
  with_backlog (with_accepted (with_clients (set_conn s c (k_stage (conns s c) Own)) (clients s ++ [c])) (accepted s ++ [c])) rest.
Lemma accept_elim c rest s (P : st -> Prop) :
  let s0 := accept_base c rest s in
  (kind K = Threaded \/ kind K = Forking -> P s0) ->
  (kind K = OneShot -> P (with_busy s0 (Some c))) ->
  (kind K = Forking -> fork_parent_keeps (fx K) = false -> P (with_clients s0 (rm c (clients s0)))) ->
  (kind K = Pool -> P (pool_register c s0)) ->
  (kind K = Pool -> P (pool_reject K c s0)) ->
  (kind K = Pool -> P (with_busy (set_conn s0 c (k_stage (conns s0 c) Authing)) (Some c))) ->
  P (accept K c rest s).
Proof.
  intros s0 H1 H2 H3 H4 H5 H6. unfold accept. fold (accept_base c rest s). fold s0. destruct (kind K).
  - auto.
  - destruct (gone (conns s c) && _); [auto|]. destruct (has_auth K); [|auto]. destruct (abeh (conns s c)); auto.
  - auto.
  - destruct (fork_parent_keeps (fx K)); auto.
Qed.

(* what a worker makes of its connection's input: nothing, a frame skipped, a request served *)
Inductive consumed (s : st) (c : cid) : st -> Prop :=
| cons_nothing : consumed s c s
| cons_skip rest : consumed s c (set_conn s c (k_inb (conns s c) rest))
| cons_serve q rest : next_input (inb (conns s c)) = NReq q rest -> consumed s c (serve_on K s c q rest).

Definition ready (s : st) : Prop := active s = true /\ lopen s = true /\ busy s = None.
Lemma ready_iff s : active s && lopen s && is_none (busy s) = true <-> ready s.
Proof. unfold ready. destruct (active s), (lopen s), (busy s); cbn; intuition discriminate. Qed.

Lemma accept_enabled s c rest : backlog s = c :: rest -> ready s -> step EAccept s = Some (accept K c rest s).
Proof. intros Hb R%ready_iff. cbn. now rewrite Hb, R. Qed.

(* Every step is a move of [trans]; the premises are what the proofs below need of the starting state.  It is coarser than [step]:
   a pool worker's four ways of letting go are not tied to what it read, [t_connected]/[t_authenticated] keep only the stage,
   [t_send]/[t_leave] nothing.  Proofs about [step e s = Some s'] go through [step_trans], one case per move.
   A connection's own worker: [t_refused] first step fails (shut, peer gone, authentication failed or abandoned); [t_connected] /
   [t_authenticated] first step without / with authenticator; [t_ended] it ends (shut, client gone, a frame that raises); [t_read]
   a request served or an empty frame skipped.  [t_auth_ends]: the pool's inline authenticator gives up.  [t_requeue]..[t_hold]:
   _serve_requests after one poll; [t_hold] with m = 0: the thread dies holding c (tree not catching BaseException). *)
Inductive trans (s : st) : event -> st -> Prop :=
| t_connect c a (Lo : lopen s = true) (Sg : stg (conns s c) = Fresh) :
    trans s (EConnect c a) (with_backlog (set_conn s c (k_abeh (k_stage (conns s c) Backlog) a)) (backlog s ++ [c]))
| t_accept c rest (Hb : backlog s = c :: rest) (Rd : ready s) : trans s EAccept (accept K c rest s)
| t_send c bs : trans s (ESend c bs) (set_conn s c (k_inb (conns s c) (inb (conns s c) ++ bs)))
| t_leave c abrupt :
    let k := conns s c in
    trans s (ELeave c abrupt) (set_conn s c (k_gone (if abrupt then k_inb (if authd k then k else k_abeh k AuthStall) [] else k)))
| t_refused c (Sg : stg (conns s c) = Own) (Au : authd (conns s c) = false) : trans s (EWork c) (finish_own K c s)
| t_connected c (Sg : stg (conns s c) = Own) : trans s (EWork c) (set_conn s c (k_authd (conns s c)))
| t_authenticated c (Sg : stg (conns s c) = Own) : trans s (EWork c) (track_served K c (set_conn s c (k_authd (conns s c))))
| t_ended c k0 (Sg : stg (conns s c) = Own) (Hk : k0 = conns s c \/ exists rest, k0 = k_inb (conns s c) rest) :
    trans s (EWork c) (finish_own K c (set_conn s c (close_conn k0)))
| t_read c s1 (Sg : stg (conns s c) = Own) (C : consumed s c s1) : trans s (EWork c) s1
| t_close_request c q rest (Sg : stg (conns s c) = Own) (Hn : next_input (inb (conns s c)) = NReq q rest) (Hq : is_close q = true) :
    trans s (EWork c) (finish_own K c (serve_on K s c q rest))
| t_auth_ends c (Sg : stg (conns s c) = Authing) : trans s (EWork c) (with_busy (pool_reject K c s) None)
| t_poll_ready c (Kp : kind K = Pool) (Mp : mem c (pollset s) = true) :
    trans s (EPoll c false) (enqueue (with_pool s (fdmap s) (rm c (pollset s)) (queue s) (workers s)) c)
| t_poll_hup c (Kp : kind K = Pool) (Mp : mem c (pollset s) = true) :
    trans s (EPoll c true) (drop c (with_pool s (fdmap s) (rm c (pollset s)) (queue s) (workers s)))
| t_take w c rest (Kp : kind K = Pool) (Hw : nth_error (workers s) w = Some None) (Hq : queue s = c :: rest) :
    trans s (ETake w) (with_pool s (fdmap s) (pollset s) rest (set_nth w (Some (c, Nat.max 1 (batch K))) (workers s)))
| t_requeue w c n s1 (Kp : kind K = Pool) (Hw : nth_error (workers s) w = Some (Some (c, n))) (C : consumed s c s1) :
    trans s (EServe w) (enqueue (set_worker s1 w None) c)
| t_park w c n s1 (Kp : kind K = Pool) (Hw : nth_error (workers s) w = Some (Some (c, n))) (Mf : mem c (fdmap s) = true)
    (C : consumed s c s1) : trans s (EServe w) (add_inactive (set_worker s1 w None) c)
| t_dropped w c n s1 (Kp : kind K = Pool) (Hw : nth_error (workers s) w = Some (Some (c, n))) (C : consumed s c s1) :
    trans s (EServe w) (drop c (set_worker s1 w None))
| t_hold w c n m s1 (Kp : kind K = Pool) (Hw : nth_error (workers s) w = Some (Some (c, n))) (C : consumed s c s1)
    (Hm : m = 0 -> pool_catches_base (fx K) = false) : trans s (EServe w) (set_worker s1 w (Some (c, m)))
| t_accept_error (Rd : ready s) (Fa : accept_survives_oserror (fx K) = true) : trans s EAcceptFail s
| t_accept_fatal (Rd : ready s) (Fa : accept_survives_oserror (fx K) = false) : trans s EAcceptFail (server_close K s)
| t_spawn_fail c rest (Hb : backlog s = c :: rest) (Rd : ready s) (Sp : spawns K = true) : trans s ESpawnFail (spawn_fail K c rest s)
| t_close : trans s EClose (server_close K s).

(* the new state is read off the equation; move m's premises are hypotheses or built by eauto ([consumed], [t_ended]'s disjunct) *)
Ltac by_move m := intros [= <-]; eapply m; eauto using consumed.
Lemma work_trans c s s' : work c s = Some s' -> trans s (EWork c) s'.
Proof.
  unfold Server.work. destruct (stg (conns s c)) eqn:Sg; try discriminate.
  - destruct (authd (conns s c)) eqn:Au; cbn [negb].
    + destruct (shut (conns s c)); [by_move t_ended|].
      destruct (next_input (inb (conns s c))) as [| |rest|rest|q rest|rest|rest] eqn:Hn.
      * destruct (gone (conns s c)); [by_move t_ended|discriminate].
      * destruct (gone (conns s c)); [by_move t_ended|discriminate].
      * by_move t_ended.
      * by_move t_read.
      * destruct (is_close q) eqn:Eq; [by_move t_close_request|by_move t_read].
      * by_move t_ended.
      * destruct (gone (conns s c)); [by_move t_ended|discriminate].
    + destruct (shut (conns s c) || _); [by_move t_refused|]. destruct (has_auth K); [|by_move t_connected].
      destruct (abeh (conns s c)); [by_move t_authenticated|by_move t_refused|].
      destruct (gone (conns s c)); [by_move t_refused|discriminate].
  - destruct (gone (conns s c) || shut (conns s c)); [by_move t_auth_ends|discriminate].
Qed.
Lemma serve_trans w s s' : kind K = Pool -> serve_step w s = Some s' -> trans s (EServe w) s'.
Proof.
  intros Kp. unfold Server.serve_step. destruct (nth_error (workers s) w) as [[[c [|n]]|]|] eqn:Hw; try discriminate.
  destruct (mem c (fdmap s)) eqn:Mf; cbn [negb]; [|by_move t_requeue].
  destruct (next_input (inb (conns s c))) as [| |rest|rest|q rest|rest|rest] eqn:Hn.
  - destruct (gone (conns s c)); [by_move t_dropped|by_move t_park].
  - destruct (gone (conns s c)); [by_move t_dropped|discriminate].
  - by_move t_requeue.
  - by_move t_park.
  - destruct (is_close q); [by_move t_dropped|]. destruct n as [|m]; [by_move t_requeue|by_move t_hold; discriminate].
  - destruct (pool_catches_base (fx K)) eqn:Cb; [by_move t_dropped|by_move t_hold].
  - destruct (gone (conns s c)); [by_move t_dropped|discriminate].
Qed.
Lemma step_trans e s s' : step e s = Some s' -> trans s e s'.
Proof.
  destruct e as [c a| |c bs|c abrupt|c|c hup|w|w| | |]; cbn [Server.step].
  - destruct (lopen s) eqn:Lo; [|discriminate]. destruct (stg (conns s c)) eqn:Sg; try discriminate. by_move t_connect.
  - destruct (backlog s) as [|c rest] eqn:Hb; [discriminate|]. destruct (_ && _) eqn:R; [|discriminate]. apply ready_iff in R. by_move t_accept.
  - destruct (_ || _); [discriminate|by_move t_send].
  - destruct (_ || _); [discriminate|by_move t_leave].
  - apply work_trans.
  - destruct (kind K) eqn:Kp; try discriminate. unfold Server.poll_step.
    destruct (mem c (pollset s)) eqn:M; [|now rewrite andb_false_r]. destruct (_ && _); [|discriminate].
    destruct hup; [by_move t_poll_hup|by_move t_poll_ready].
  - destruct (kind K) eqn:Kp; try discriminate. unfold Server.take_step.
    destruct (nth_error (workers s) w) as [[|]|] eqn:Hw; try discriminate. destruct (queue s) as [|c rest] eqn:Hq; [discriminate|].
    destruct (active s); [by_move t_take|discriminate].
  - destruct (kind K) eqn:Kp; try discriminate. now apply serve_trans.
  - destruct (_ && _) eqn:R; [|discriminate]. apply ready_iff in R.
    destruct (accept_survives_oserror (fx K)) eqn:F; [by_move t_accept_error|by_move t_accept_fatal].
  - destruct (backlog s) as [|c rest] eqn:Hb; [discriminate|]. destruct (_ && spawns K) eqn:R; [|discriminate].
    apply andb_prop in R. destruct R as [R Sp]. apply ready_iff in R. by_move t_spawn_fail.
  - by_move t_close.
Qed.

Lemma consumed_tables s c s1 : consumed s c s1 -> same_tables s s1.
Proof. intros [|rest|q rest _]; [repeat split|apply set_conn_tables|apply serve_on_tables]. Qed.
Arguments consumed_tables {s c s1}.
Lemma consumed_other s c s1 x : consumed s c s1 -> x <> c -> conns s1 x = conns s x.
Proof. intros [|rest|q rest _] N; [reflexivity|apply upd_other, N|apply serve_on_other, N]. Qed.
Arguments consumed_other {s c s1 x}.
Lemma consumed_workers s c s1 : consumed s c s1 -> workers s1 = workers s.
Proof. intros C. apply (consumed_tables C). Qed.
Arguments consumed_workers {s c s1}.

(* flags and the tables of a closed / non-pool server *)
Record Inv1 (s : st) : Prop := {
  i_closed : closed s = negb (active s);
  i_lopen : lopen s = active s;
  i_closed_clients : closed s = true -> clients s = [] /\ backlog s = [];
  i_closed_pool : closed s = true -> pool_fix = true -> fdmap s = [] /\ pollset s = [];
  i_nonpool : kind K <> Pool -> fdmap s = [] /\ pollset s = [] /\ queue s = [] /\ workers s = [];
  i_busy_kind : busy s <> None -> kind K = OneShot \/ kind K = Pool
}.

Lemma inv1_open s : Inv1 s -> active s = true -> closed s = false.
Proof. intros I A. now rewrite (i_closed _ I), A. Qed.
Lemma inv1_flags s : Inv1 s -> active s = negb (closed s) /\ lopen s = negb (closed s).
Proof. intros I. rewrite (i_lopen _ I), (i_closed _ I). now destruct (active s). Qed.
Lemma inv1_pool_only s (P : Prop) : Inv1 s -> (kind K = Pool -> Inv1 s -> P) -> (kind K <> Pool -> P) -> P.
Proof. intros I H1 H2. destruct (kind K) eqn:E; try (apply H2; congruence). now apply H1. Qed.

(* Inv1 does not look at the connections: it can be followed through an operation one record update at a time *)
Lemma inv1_tables s s' : same_tables s s' -> Inv1 s -> Inv1 s'.
Proof.
  intros (e1 & e2 & e3 & e4 & e5 & e6 & e7 & e8 & e9 & e10 & e11) [A B C D E F].
  constructor; rewrite ?e1, ?e2, ?e3, ?e4, ?e5, ?e6, ?e7, ?e8, ?e9, ?e10, ?e11; assumption.
Qed.
Lemma inv1_with_clients s l : (closed s = true -> l = []) -> Inv1 s -> Inv1 (with_clients s l).
Proof. intros H [A B C D E F]. constructor; auto. intros Hc. split; [auto|apply C, Hc]. Qed.
Lemma inv1_with_backlog s l : (closed s = true -> l = []) -> Inv1 s -> Inv1 (with_backlog s l).
Proof. intros H [A B C D E F]. constructor; auto. intros Hc. split; [apply C, Hc|auto]. Qed.
Lemma inv1_with_busy s b : (b <> None -> kind K = OneShot \/ kind K = Pool) -> Inv1 s -> Inv1 (with_busy s b).
Proof. intros H [A B C D E F]. constructor; auto. Qed.
Lemma inv1_with_pool s fm ps qu ws :
  kind K = Pool -> (closed s = true -> fdmap s = [] -> pollset s = [] -> fm = [] /\ ps = []) -> Inv1 s -> Inv1 (with_pool s fm ps qu ws).
Proof.
  intros Kp H [A B C D E F]. constructor; auto; [|congruence].
  intros Hc Hf. destruct (D Hc Hf). auto.
Qed.

Lemma inv1_set_conn s c k : Inv1 s -> Inv1 (set_conn s c k).
Proof. apply inv1_tables, set_conn_tables. Qed.
Lemma inv1_with_accepted s l : Inv1 s -> Inv1 (with_accepted s l).
Proof. intros [A B C D E F]. constructor; auto. Qed.
Lemma inv1_with_clients_nil s l : (clients s = [] -> l = []) -> Inv1 s -> Inv1 (with_clients s l).
Proof. intros H I. apply inv1_with_clients; [|exact I]. intros Hc. apply H, (i_closed_clients _ I Hc). Qed.
Lemma inv1_pool_reject s c : Inv1 s -> Inv1 (pool_reject K c s).
Proof.
  intros I. apply (inv1_with_clients_nil (set_conn s c _)); [cbn; intros ->; now destruct (pool_fail_discards (fx K))|apply inv1_set_conn, I].
Qed.

(* every connection against the tables.  [tracked]: is the socket served by a worker of its own in Server.clients?  (Pool: no
   stage Own, value immaterial.)  A Finished connection still in Server.clients: the pool's failed authentication on a tree that
   does not discard the socket (F22). *)
Definition tracked : bool :=
  match kind K with Threaded | OneShot => negb (loose K) | Pool => true | Forking => fork_parent_keeps (fx K) end.

Definition conn_ok (cl fm : list cid) (bz : option cid) (bl : list cid) (x : cid) (k : conn) : Prop :=
  hooks k = (if cclosed k then 1 else 0)
  /\ (cclosed k = true -> authd k = true /\ shut k = true)
  /\ (stg k = Own -> kind K <> Pool /\ (tracked = true -> mem x cl = true \/ shut k = true))
  /\ (stg k = Authing -> kind K = Pool /\ bz = Some x /\ (mem x cl = true \/ shut k = true))
  /\ (stg k = Pooled -> mem x fm = true /\ authd k = true)
  /\ (mem x fm = true -> stg k = Pooled)
  /\ (mem x cl = true -> stg k = Own \/ stg k = Authing \/ (kind K = Pool /\ stg k = Finished /\ pool_fail_discards (fx K) = false))
  /\ (In x bl -> stg k = Backlog)
  /\ (stg k = Finished -> authd k = true -> cclosed k = true)
  /\ (stg k = Fresh \/ stg k = Backlog \/ stg k = Authing -> authd k = false).
Definition Inv2 (s : st) : Prop :=
  (forall x, conn_ok (clients s) (fdmap s) (busy s) (backlog s) x (conns s x)) /\ NoDup (backlog s).

(* [conn_ok] read stage by stage.  a, f: is the connection in Server.clients, in fd_to_conn; B, L: is it the one the accept loop is
   busy with, is it in the listener's queue *)
Definition hooked (k : conn) : Prop :=
  hooks k = (if cclosed k then 1 else 0) /\ (cclosed k = true -> authd k = true /\ shut k = true).
Definition placed (a f : bool) (B L : Prop) (k : conn) : Prop :=
  match stg k with
  | Fresh => a = false /\ f = false /\ ~ L /\ authd k = false
  | Backlog => a = false /\ f = false /\ authd k = false
  | Own => kind K <> Pool /\ (tracked = true -> a = true \/ shut k = true) /\ f = false /\ ~ L
  | Authing => kind K = Pool /\ B /\ (a = true \/ shut k = true) /\ f = false /\ ~ L /\ authd k = false
  | Pooled => a = false /\ f = true /\ ~ L /\ authd k = true
  | Finished => (a = true -> kind K = Pool /\ pool_fail_discards (fx K) = false) /\ f = false /\ ~ L /\ (authd k = true -> cclosed k = true)
  end.
Definition ok (a f : bool) (B L : Prop) (k : conn) : Prop := hooked k /\ placed a f B L k.
Lemma conn_ok_stages cl fm bz bl x k : conn_ok cl fm bz bl x k <-> ok (mem x cl) (mem x fm) (bz = Some x) (In x bl) k.
Proof.
  unfold conn_ok, ok, hooked, placed. generalize (mem x cl) (mem x fm). intros a f. split.
  - (* a and f stay variables (a case split on them is dear): [b = false] is shown as [b <> true] *)
    intros (H1 & H2 & H3 & H4 & H5 & H6 & H7 & H8 & H9 & H10). split; [split; assumption|]. clear H1 H2.
    destruct (stg k); repeat split; try (apply not_true_is_false; intro); intuition (discriminate || congruence).
  - destruct (stg k); intuition (discriminate || congruence).
Qed.
Definition ok_at (s : st) (x : cid) : Prop :=
  ok (mem x (clients s)) (mem x (fdmap s)) (busy s = Some x) (In x (backlog s)) (conns s x).
Lemma inv2_stages s : Inv2 s <-> (forall x, ok_at s x) /\ NoDup (backlog s).
Proof. unfold Inv2, ok_at. split; intros [H N]; (split; [|exact N]); intros x; apply conn_ok_stages, H. Qed.
Lemma inv2_at s x : Inv2 s -> ok_at s x.
Proof. intros [H _]%inv2_stages. apply H. Qed.
(* how Inv2 is re-established after an operation *)
Lemma inv2_update s s' : NoDup (backlog s') -> (forall x, ok_at s x -> ok_at s' x) -> Inv2 s -> Inv2 s'.
Proof. intros N' Hx [H N]%inv2_stages. apply inv2_stages. split; [|exact N']. intros x. apply Hx, H. Qed.

Lemma ok_tables a f (B L : Prop) a' f' (B' L' : Prop) k :
  a' = a -> f' = f -> (B -> B') -> (L' -> L) -> ok a f B L k -> ok a' f' B' L' k.
Proof. intros -> -> HB HL [Hk Hp]. split; [exact Hk|]. unfold placed in *. destruct (stg k); tauto. Qed.
Definition same_core (k k' : conn) : Prop :=
  stg k' = stg k /\ authd k' = authd k /\ shut k' = shut k /\ cclosed k' = cclosed k /\ hooks k' = hooks k.
Lemma ok_core a f B L k k' : same_core k k' -> ok a f B L k -> ok a f B L k'.
Proof. intros (e1 & e2 & e3 & e4 & e5). unfold ok, hooked, placed. rewrite e1, e2, e3, e4, e5. auto. Qed.
Arguments ok_core {a f B L k k'}.
Lemma hooked_close k : hooked k -> hooked (close_conn k).
Proof.
  unfold hooked. rewrite close_conn_hooks, close_conn_cclosed, close_conn_authd, close_conn_shut. intros [H1 H2].
  destruct (cclosed k), (authd k); cbn [andb orb negb]; rewrite ?H1, ?orb_true_r, ?orb_false_r; auto.
Qed.
Lemma ok_close a f B L k : ok a f B L k -> ok a f B L (close_conn k).
Proof.
  intros [Hk Hp]. split; [apply hooked_close, Hk|]. unfold placed in *.
  rewrite close_conn_stg, close_conn_authd, close_conn_shut, close_conn_cclosed.
  destruct (stg k); try exact Hp.
  - destruct Hp as (H1 & H2 & H3 & H4). repeat split; auto. intros T. destruct (H2 T) as [->| ->]; auto.
  - destruct Hp as (H1 & H2 & [->| ->] & H3); tauto.
  - destruct Hp as (H1 & H2 & H3 & H4). split; [exact H1|]. split; [exact H2|]. split; [exact H3|]. intros ->. apply orb_true_r.
Qed.
Lemma ok_authd a f B L k : stg k = Own -> ok a f B L k -> ok a f B L (k_authd k).
Proof.
  intros Hs [[H1 H2] Hp]. split; [split; [exact H1|]|].
  - intros E. split; [reflexivity|apply (H2 E)].
  - unfold placed in *. cbn [stg k_authd shut]. rewrite Hs in *. exact Hp.
Qed.

Definition fin_ok (k : conn) : Prop := authd k = true -> cclosed k = true.
Lemma fin_ok_close k : fin_ok (close_conn k).
Proof. unfold fin_ok. rewrite close_conn_authd, close_conn_cclosed. intros ->. apply orb_true_r. Qed.
Lemma fin_ok_unauth k : authd k = false -> fin_ok k.
Proof. unfold fin_ok. intros ->. discriminate. Qed.
Lemma fin_ok_served_close s c q rest : is_close q = true -> fin_ok (served_conn s c q rest).
Proof.
  intros Hq. unfold served_conn. destruct (serve_req K c _ _ q) as [[v' tb'] r]. rewrite Hq. apply fin_ok_close.
Qed.
Lemma ok_finish a f B L a' (B' : Prop) k :
  (stg k = Own \/ stg k = Authing) -> fin_ok k -> (a' = true -> kind K = Pool /\ pool_fail_discards (fx K) = false) ->
  ok a f B L k -> ok a' f B' L (k_stage (k_shut k) Finished).
Proof.
  intros Hs Hf Ha [[H1 H2] Hp]. split; [split; [exact H1|]|].
  - intros E. split; [apply (H2 E)|reflexivity].
  - unfold placed, fin_ok in *. cbn [stg authd cclosed k_stage k_shut]. destruct Hs as [Hs|Hs]; rewrite Hs in Hp; tauto.
Qed.
Lemma ok_dropped a B L k : ok a true B L k -> ok a false B L (k_stage (close_conn k) Finished).
Proof.
  intros H. apply ok_close in H. destruct H as [Hk Hp]. split; [exact Hk|].
  pose proof (fin_ok_close k) as F.
  revert Hp F. generalize (close_conn k). intros k' Hp F. unfold placed in *. cbn [stg k_stage].
  destruct (stg k'); try (exfalso; intuition congruence). destruct Hp as (-> & _ & HL & _). repeat split; auto; discriminate.
Qed.
Lemma ok_unbusy a f (B B' : Prop) L k : stg k <> Authing -> ok a f B L k -> ok a f B' L k.
Proof. intros N [Hk Hp]. split; [exact Hk|]. unfold placed in *. destruct (stg k); auto. congruence. Qed.
Lemma ok_cleared a f (B : Prop) L k : kind K = Pool -> ~ B -> ok a f B L k -> ok false f B L k.
Proof. intros Kp NB [Hk Hp]. split; [exact Hk|]. unfold placed in *. destruct (stg k); intuition discriminate. Qed.
Lemma ok_listed a f (B L : Prop) k : L -> ok a f B L k -> stg k = Backlog /\ a = false /\ f = false /\ authd k = false.
Proof. intros HL [_ Hp]. unfold placed in Hp. destruct (stg k); tauto. Qed.
Arguments ok_listed {a f B L k}.

Ltac ok_fields :=
  unfold ok_at; cbn [busy clients fdmap conns backlog with_conns set_conn with_clients with_busy with_pool with_shared with_accepted with_backlog].

Lemma ok_served a f B L s c q rest : ok a f B L (conns s c) -> ok a f B L (served_conn s c q rest).
Proof.
  intros H. unfold served_conn. destruct (serve_req K c _ _ q) as [[v' tb'] r].
  match goal with |- ok _ _ _ _ (if _ then close_conn ?k else _) => assert (H' : ok a f B L k) end.
  { eapply ok_core; [|exact H]. repeat split. }
  destruct (is_close q); [apply ok_close|]; exact H'.
Qed.
Lemma inv2_tables s s' :
  clients s' = clients s -> fdmap s' = fdmap s -> busy s' = busy s -> backlog s' = backlog s -> conns s' = conns s -> Inv2 s -> Inv2 s'.
Proof. intros e1 e2 e3 e4 e5 [H N]. split; rewrite ?e1, ?e2, ?e3, ?e4, ?e5; assumption. Qed.
Lemma hooked_shut k : hooked k -> hooked (k_shut k).
Proof. intros [H1 H2]. split; [exact H1|]. intros E. split; [apply (H2 E)|reflexivity]. Qed.
Lemma ok_reset a f (B : Prop) (l : bool) k : ok a f B (l = true) k -> ok a f B False (if l then k_stage (k_shut k) Finished else k).
Proof.
  intros H. destruct l; [|revert H; apply ok_tables; tauto].
  destruct (ok_listed eq_refl H) as (Sg & -> & -> & Au). destruct H as [Hk _].
  split; [apply hooked_shut, Hk|]. unfold placed. cbn [stg authd cclosed k_stage k_shut]. rewrite Au. intuition discriminate.
Qed.
Lemma ok_shut_clients a f B L k : ok a f B L k -> ok false f B L (if a then k_shut k else k).
Proof.
  intros [Hk Hp]. destruct a; [|split; assumption].
  split; [apply hooked_shut, Hk|]. unfold placed in *. cbn [stg authd shut cclosed k_shut]. destruct (stg k); intuition discriminate.
Qed.
Lemma ok_pool_drop (pf f : bool) a B L k :
  ok a f B L k -> ok a (if pf then false else f) B L (if pf && f then k_stage (close_conn k) Finished else k).
Proof. intros H. destruct pf, f; cbn [andb]; auto. now apply ok_dropped. Qed.
Lemma ok_after_close s x : ok_at s x ->
  ok false (if pool_fix then false else mem x (fdmap s)) (busy s = Some x) False (conn_after_close s x).
Proof.
  intros H. apply ok_pool_drop, ok_shut_clients, ok_reset. revert H. apply ok_tables; auto. apply mem_In.
Qed.
Lemma inv2_no_authing s : Inv2 s -> kind K <> Pool -> forall x, stg (conns s x) <> Authing.
Proof. intros I Nk x E. destruct (inv2_at s x I) as [_ Hp]. unfold placed in Hp. rewrite E in Hp. tauto. Qed.
Lemma inv2_backlog_head s c rest : backlog s = c :: rest -> Inv2 s ->
  stg (conns s c) = Backlog /\ mem c (clients s) = false /\ mem c (fdmap s) = false /\ authd (conns s c) = false.
Proof. intros Hb I. pose proof (inv2_at s c I) as H. unfold ok_at in H. rewrite Hb in H. revert H. apply ok_listed. now left. Qed.
Lemma accept_spawns_conn s c rest : spawns K = true -> conns (accept K c rest s) c = k_stage (conns s c) Own.
Proof.
  unfold spawns. intros Sp. apply accept_elim; cbv zeta; intros Kd; try intros Kf; try (rewrite Kd in Sp; discriminate Sp); apply upd_same.
Qed.
Lemma rebuffered_core k k0 : k0 = k \/ (exists rest, k0 = k_inb k rest) -> same_core k k0.
Proof. intros [->|[rest ->]]; repeat split. Qed.
Lemma leave_core k (abrupt : bool) : same_core k (k_gone (if abrupt then k_inb (if authd k then k else k_abeh k AuthStall) [] else k)).
Proof. destruct abrupt, (authd k); repeat split. Qed.

Definition cnt (x : cid) (l : list cid) : nat := count_occ Nat.eq_dec l x.
Definition slot_cids (w : option (cid * nat)) : list cid := match w with Some (c, _) => [c] | None => [] end.
Definition held (s : st) : list cid := flat_map slot_cids (workers s).

Lemma cnt_app x a b : cnt x (a ++ b) = cnt x a + cnt x b.
Proof. apply count_occ_app. Qed.
Lemma cnt_one x y : cnt x [y] = if Nat.eqb x y then 1 else 0.
Proof.
  unfold cnt. cbn. destruct (Nat.eq_dec y x) as [->|N]; [now rewrite Nat.eqb_refl|].
  destruct (Nat.eqb x y) eqn:E; [apply Nat.eqb_eq in E; congruence|reflexivity].
Qed.
Lemma cnt_cons x y l : cnt x (y :: l) = (if Nat.eqb x y then 1 else 0) + cnt x l.
Proof. change (y :: l) with ([y] ++ l). now rewrite cnt_app, cnt_one. Qed.
Lemma cnt_rm x d l : cnt x (rm d l) = if Nat.eqb x d then 0 else cnt x l.
Proof.
  induction l as [|y l IH]; [now destruct (Nat.eqb x d)|].
  change (rm d (y :: l)) with (if negb (Nat.eqb y d) then y :: rm d l else rm d l).
  rewrite cnt_cons. destruct (Nat.eqb y d) eqn:E; cbn [negb].
  - rewrite IH. apply Nat.eqb_eq in E. subst. destruct (Nat.eqb x d); reflexivity.
  - rewrite cnt_cons, IH. destruct (Nat.eqb x d) eqn:F; [|reflexivity].
    apply Nat.eqb_eq in F. subst. now rewrite Nat.eqb_sym, E.
Qed.
Lemma cnt_nil x : cnt x [] = 0.
Proof. reflexivity. Qed.
Lemma cnt_pos_mem x l : mem x l = true <-> cnt x l > 0.
Proof. rewrite mem_In. apply count_occ_In. Qed.
Lemma cnt_zero_mem x l : mem x l = false <-> cnt x l = 0.
Proof.
  split; intros H.
  - destruct (cnt x l) eqn:E; [reflexivity|]. assert (G : cnt x l > 0) by lia. apply cnt_pos_mem in G. congruence.
  - destruct (mem x l) eqn:E; [|reflexivity]. apply cnt_pos_mem in E. lia.
Qed.

Lemma held_set_nth x ws w old v :
  let here (o : option (cid * nat)) := match o with Some (c, _) => if Nat.eqb x c then 1 else 0 | None => 0 end in
  nth_error ws w = Some old ->
  cnt x (flat_map slot_cids (set_nth w v ws)) + here old = cnt x (flat_map slot_cids ws) + here v.
Proof.
  intros here. assert (E : forall o, cnt x (slot_cids o) = here o) by (intros [[c n]|]; [apply cnt_one|reflexivity]).
  revert w. induction ws as [|y ws IH]; intros [|w] H; cbn in H; try discriminate.
  - inversion H; subst. cbn [set_nth flat_map]. rewrite !cnt_app, !E. lia.
  - cbn [set_nth flat_map]. rewrite !cnt_app. specialize (IH w H). lia.
Qed.

(* the pool: every registered descriptor is in exactly one place -- while active: the repaired close() empties fd_to_conn and
   the poll set while workers may still hold descriptors *)
Definition Inv3 (s : st) : Prop :=
  active s = true -> forall x, cnt x (pollset s) + cnt x (queue s) + cnt x (held s) = if mem x (fdmap s) then 1 else 0.

Lemma inv3_tables s s' :
  active s' = active s -> fdmap s' = fdmap s -> pollset s' = pollset s -> queue s' = queue s -> workers s' = workers s -> Inv3 s -> Inv3 s'.
Proof. intros e1 e2 e3 e4 e5 H. unfold Inv3, held. rewrite e1, e2, e3, e4, e5. exact H. Qed.
Ltac pool_fields :=
  unfold held; cbn [active fdmap pollset queue workers with_conns set_conn with_clients with_accepted with_backlog with_pool set_worker enqueue add_inactive].

(* _drop_connection, when no table but fd_to_conn holds the descriptor; the others may hold anything *)
Lemma inv3_drop s c :
  (active s = true -> forall x, cnt x (pollset s) + cnt x (queue s) + cnt x (held s)
                                = if Nat.eqb x c then 0 else if mem x (fdmap s) then 1 else 0) -> Inv3 (drop c s).
Proof.
  intros H. rewrite drop_eq. destruct (mem c (fdmap s)) eqn:M; intros A x; specialize (H A x); unfold held in H; pool_fields; rewrite H, ?mem_rm;
  destruct (Nat.eqb x c) eqn:E; try reflexivity. apply Nat.eqb_eq in E. subst. now rewrite M.
Qed.
Lemma inv3_drop_free s c : Inv3 s -> (active s = true -> cnt c (pollset s) + cnt c (queue s) + cnt c (held s) = 0) -> Inv3 (drop c s).
Proof.
  intros H Hz. apply inv3_drop. intros A x. destruct (Nat.eqb x c) eqn:E; [|apply H, A].
  apply Nat.eqb_eq in E. subst. apply Hz, A.
Qed.

Definition Inv (s : st) : Prop := Inv1 s /\ Inv2 s /\ Inv3 s.

Lemma inv_init : Inv (init K).
Proof.
  split; [|split].
  - constructor; cbn; try reflexivity; try discriminate; try congruence.
    intros N. destruct (kind K); try congruence; repeat split.
  - apply inv2_stages. split; [|constructor]. intros x. repeat split; auto.
  - intros _ x. unfold held. cbn. destruct (kind K); cbn; try reflexivity. induction (nworkers K); cbn; auto.
Qed.

Lemma inv_same_tables s s' c :
  same_tables s s' -> (forall x, x <> c -> conns s' x = conns s x) ->
  (forall a f B L, ok a f B L (conns s c) -> ok a f B L (conns s' c)) -> Inv s -> Inv s'.
Proof.
  intros T Ho Hc (I1 & I2 & I3). split; [exact (inv1_tables _ _ T I1)|].
  destruct T as (e1 & _ & _ & e4 & e5 & e6 & e7 & e8 & e9 & _ & e11). split.
  - refine (inv2_update s _ _ _ I2); [rewrite e11; apply I2|]. intros x. unfold ok_at. rewrite e4, e5, e6, e11.
    destruct (Nat.eq_dec x c) as [->|Nx]; [apply Hc|now rewrite Ho].
  - now apply (inv3_tables s).
Qed.
Lemma inv_set_conn s c k' : (forall a f B L, ok a f B L (conns s c) -> ok a f B L k') -> Inv s -> Inv (set_conn s c k').
Proof. intros Hk. apply (inv_same_tables _ _ c); [apply set_conn_tables|intros x; apply upd_other|]. cbn. now rewrite upd_same. Qed.
Lemma inv_local s c k' : same_core (conns s c) k' -> Inv s -> Inv (set_conn s c k').
Proof. intros Hc. apply inv_set_conn. intros a f B L. apply ok_core, Hc. Qed.
Lemma inv_consumed s c s1 : consumed s c s1 -> Inv s -> Inv s1.
Proof.
  intros [|rest|q rest _]; [auto|apply inv_local; repeat split|].
  apply (inv_same_tables _ _ c); [apply serve_on_tables|intros x; apply serve_on_other|].
  intros a f B L. rewrite serve_on_same. apply ok_served.
Qed.
Arguments inv_consumed {s c s1}.

Lemma inv_server_close s : Inv s -> Inv (server_close K s).
Proof.
  intros I. destruct (closed s) eqn:Ec; [now rewrite sc_again|]. destruct I as (I1 & I2 & I3).
  destruct (sc_kept s) as (e1 & e2 & e3 & _). destruct (sc_tables s Ec) as (e4 & e5 & e6 & e7 & e8 & e9). split; [|split].
  - destruct I1 as [A B C D E F]. constructor; rewrite ?sc_closed, ?e1, ?e2, ?e3, ?e4, ?e5, ?e6, ?e7, ?e8, ?e9; auto.
    + intros _ ->. auto.
    + intros N. destruct (E N) as (-> & -> & -> & ->). destruct pool_fix; auto.
  - refine (inv2_update s _ _ _ I2); [rewrite e7; constructor|]. intros x H. unfold ok_at. rewrite e1, e6, e7, e8, sc_conns by exact Ec.
    generalize (ok_after_close s x H). destruct pool_fix; auto.
  - intros A. rewrite e4 in A. discriminate A.
Qed.

Lemma inv_finish_own s c : stg (conns s c) = Own -> fin_ok (conns s c) -> Inv s -> Inv (finish_own K c s).
Proof.
  intros Hs Hf (I1 & I2 & I3).
  assert (I' : Inv (fo_core c s)).
  { split; [|split].
    - apply (inv1_with_clients_nil (set_conn s c _)); [cbn; now intros ->|apply inv1_set_conn, I1].
    - refine (inv2_update s _ _ _ I2); [apply I2|]. intros x. unfold fo_core. ok_fields. conn_at x c; [|now rewrite mem_rm_other].
      rewrite mem_rm_same. apply ok_finish; [left; exact Hs|exact Hf|discriminate].
    - eapply inv3_tables; [..|exact I3]; reflexivity. }
  rewrite finish_own_eq. destruct (kind K) eqn:Ek; try exact I'.
  (* the one-shot server: the accept loop is free again, then close() *)
  apply inv_server_close. destruct I' as (J1 & J2 & J3). split; [|split].
  - apply inv1_with_busy; [congruence|exact J1].
  - assert (NA := inv2_no_authing _ J2 ltac:(congruence)).
    refine (inv2_update _ _ _ _ J2); [apply J2|]. intros x. ok_fields. apply ok_unbusy, NA.
  - eapply inv3_tables; [..|exact J3]; reflexivity.
Qed.

Lemma inv_drop s c : kind K = Pool -> Inv1 s -> Inv2 s ->
  (active s = true -> forall x, cnt x (pollset s) + cnt x (queue s) + cnt x (held s)
                                = if Nat.eqb x c then 0 else if mem x (fdmap s) then 1 else 0) -> Inv (drop c s).
Proof.
  intros Kp I1 I2 H3. split; [|split; [|apply inv3_drop, H3]]; rewrite drop_eq; destruct (mem c (fdmap s)) eqn:M; try assumption.
  - apply inv1_with_pool; [exact Kp| |apply inv1_set_conn, I1]. cbn. intros _ -> ->. auto.
  - refine (inv2_update s _ _ _ I2); [apply I2|]. intros x. ok_fields. conn_at x c; [|now rewrite mem_rm_other].
    rewrite mem_rm_same, M. apply ok_dropped.
Qed.

Lemma inv_connect s c a : lopen s = true -> stg (conns s c) = Fresh -> Inv s ->
  Inv (with_backlog (set_conn s c (k_abeh (k_stage (conns s c) Backlog) a)) (backlog s ++ [c])).
Proof.
  intros Lo Hs (I1 & I2 & I3). split; [|split].
  - apply inv1_with_backlog; [|apply inv1_set_conn, I1]. cbn. rewrite (i_closed _ I1), <- (i_lopen _ I1), Lo. discriminate.
  - destruct (inv2_at s c I2) as [Hk Hp]. unfold placed in Hp. rewrite Hs in Hp. destruct Hp as (Ea & Ef & Nin & Au).
    refine (inv2_update s _ _ _ I2); [apply NoDup_snoc; [exact Nin|apply I2]|]. intros x. ok_fields. conn_at x c.
    + intros _. rewrite Ea, Ef. split; [exact Hk|]. unfold placed. cbn. auto.
    + apply ok_tables; auto. rewrite in_app_iff. cbn. intuition congruence.
  - eapply inv3_tables; [..|exact I3]; reflexivity.
Qed.

Lemma inv_accept s c rest : backlog s = c :: rest -> ready s -> Inv s -> Inv (accept K c rest s).
Proof.
  intros Hb (Ha & _ & Bn) (I1 & I2 & I3). pose proof (inv1_open _ I1 Ha) as Hc.
  destruct (inv2_backlog_head s c rest Hb I2) as (Sc & Mc & Mf & Au). split; [|split].
  - assert (I0 : Inv1 (accept_base c rest s)).
    { apply inv1_with_backlog; [cbn; congruence|]. apply inv1_with_accepted.
      apply inv1_with_clients; [cbn; congruence|]. apply inv1_set_conn, I1. }
    apply accept_elim; cbv zeta; intros Kd. (* the six outcomes, labelled in the second part *)
    + exact I0.
    + apply inv1_with_busy; auto.
    + intros _. apply inv1_with_clients_nil; [now intros ->|exact I0].
    + apply inv1_with_clients; [cbn; congruence|]. apply inv1_with_pool; [exact Kd| |apply inv1_set_conn, I0]. cbn. congruence.
    + apply inv1_pool_reject, I0.
    + apply inv1_with_busy; [auto|]. apply inv1_set_conn, I0.
  - pose proof (proj2 I2) as N. rewrite Hb in N. inversion N as [|? ? Nin N']; subst. destruct (inv2_at s c I2) as [Hk _].
    assert (Ho : forall x a' f' b', x <> c -> a' = mem x (clients s) -> f' = mem x (fdmap s) ->
                                    ok_at s x -> ok a' f' (b' = Some x) (In x rest) (conns s x)).
    { intros x a' f' b' Nx -> ->. unfold ok_at. apply ok_tables; auto; [congruence|]. rewrite Hb. now right. }
    apply (inv2_update s); [apply accept_elim; intros; exact N'| |exact I2]. intros x.
    apply accept_elim; cbv zeta; unfold accept_base; intros Kd.
    + (* a thread or a child process *)
      ok_fields. conn_at x c; [intros _|apply Ho; auto using mem_snoc_other].
      rewrite mem_snoc_same. split; [exact Hk|]. unfold placed. cbn. repeat split; auto. destruct Kd; congruence.
    + (* one-shot *)
      ok_fields. conn_at x c; [intros _|apply Ho; auto using mem_snoc_other].
      rewrite mem_snoc_same. split; [exact Hk|]. unfold placed. cbn. repeat split; auto. congruence.
    + (* forking, the parent forgets the socket *)
      intros Kf. ok_fields.
      conn_at x c; [intros _|apply Ho; auto; now rewrite mem_rm_other, mem_snoc_other].
      rewrite mem_rm_same. split; [exact Hk|]. unfold placed. cbn. repeat split; auto; [congruence|]. unfold tracked. rewrite Kd, Kf. discriminate.
    + (* pool, registered: Server.clients is cleared (harmless, the loop is free) *)
      unfold pool_register. ok_fields. conn_at x c; intros H.
      * rewrite mem_snoc_same. split; [split; [apply Hk|]|]; [|unfold placed; cbn; auto].
        intros E. split; [reflexivity|apply Hk, E].
      * apply (ok_cleared (mem x (clients s))); [exact Kd|rewrite Bn; discriminate|]. revert H. apply Ho; auto using mem_snoc_other.
    + (* pool, rejected *)
      unfold pool_reject. ok_fields. conn_at x c; [intros _|].
      * rewrite Mf. split; [apply hooked_shut, Hk|]. unfold placed. cbn [stg authd cclosed k_stage k_shut]. rewrite Au.
        destruct (pool_fail_discards (fx K)) eqn:Pd; rewrite ?mem_rm_same; intuition discriminate.
      * apply Ho; auto. destruct (pool_fail_discards (fx K)); now rewrite ?mem_rm_other, mem_snoc_other.
    + (* pool, the authenticator stalls *)
      ok_fields. conn_at x c; [intros _|apply Ho; auto using mem_snoc_other].
      rewrite mem_snoc_same, Mf. split; [exact Hk|]. unfold placed. cbn. auto 8.
  - (* only the pool's registration touches what Inv3 reads *)
    assert (T : forall s', active s' = active s -> fdmap s' = fdmap s -> pollset s' = pollset s -> queue s' = queue s ->
                           workers s' = workers s -> Inv3 s') by (intros s' e1 e2 e3 e4 e5; now apply (inv3_tables s)).
    apply accept_elim; cbv zeta; intros Kd.
    + now apply T.
    + now apply T.
    + intros _. now apply T.
    + (* pool: registered *)
      intros A x. unfold pool_register, accept_base. pool_fields. specialize (I3 A x). unfold held in I3. rewrite cnt_app, mem_app, mem_one, cnt_one.
      destruct (Nat.eqb x c) eqn:E; [|rewrite orb_false_r; lia].
      apply Nat.eqb_eq in E. subst. rewrite Mf in *. cbn. lia.
    + now apply T.
    + now apply T.
Qed.

Lemma inv_spawn_fail s c rest : spawns K = true -> backlog s = c :: rest -> ready s -> Inv s -> Inv (spawn_fail K c rest s).
Proof.
  intros Hsp Hb Rd I. destruct (inv2_backlog_head s c rest Hb (proj1 (proj2 I))) as (_ & _ & _ & Au).
  assert (I1 : Inv (finish_own K c (accept K c rest s))).
  { apply inv_finish_own; rewrite ?accept_spawns_conn by assumption; [reflexivity|apply fin_ok_unauth, Au|now apply inv_accept]. }
  unfold spawn_fail. destruct (accept_survives_spawn_failure (fx K)); [exact I1|apply inv_server_close, I1].
Qed.

Lemma inv_track_served s c : stg (conns s c) = Own -> Inv s -> Inv (track_served K c s).
Proof.
  intros Hs (I1 & I2 & I3). split; [|split].
  - revert I1. apply inv1_with_clients_nil. intros ->. now destruct (loose K).
  - unfold track_served. destruct (loose K) eqn:Lo; [|eapply inv2_tables; [..|exact I2]; reflexivity].
    assert (T : tracked = false).
    { unfold tracked, loose in *. destruct (kind K); try discriminate; rewrite Lo; reflexivity. }
    apply (inv2_update s); [exact (proj2 I2)| |exact I2]. intros x. ok_fields. conn_at x c; [|now rewrite mem_rm_other].
    rewrite mem_rm_same. intros [Hk Hp]. split; [exact Hk|]. unfold placed in *. rewrite Hs, T in *. intuition discriminate.
  - eapply inv3_tables; [..|exact I3]; reflexivity.
Qed.

Lemma inv_auth_ends s c : stg (conns s c) = Authing -> Inv s -> Inv (with_busy (pool_reject K c s) None).
Proof.
  intros Sc (I1 & I2 & I3). split; [|split].
  - apply inv1_with_busy; [congruence|]. apply inv1_pool_reject, I1.
  - destruct (inv2_at s c I2) as [Hk Hp]. unfold placed in Hp. rewrite Sc in Hp. destruct Hp as (Kp & Bc & _ & _ & _ & Au).
    apply (inv2_update s); [exact (proj2 I2)| |exact I2]. intros x. unfold pool_reject. ok_fields. conn_at x c.
    + apply ok_finish; [auto|intros E; congruence|].
      destruct (pool_fail_discards (fx K)); [rewrite mem_rm_same; discriminate|auto].
    + intros H. apply (ok_unbusy _ _ (busy s = Some x)).
      * intros E. destruct H as [_ Hp]. unfold placed in Hp. rewrite E in Hp. destruct Hp as (_ & Bx & _). congruence.
      * destruct (pool_fail_discards (fx K)); now rewrite ?mem_rm_other.
  - eapply inv3_tables; [..|exact I3]; reflexivity.
Qed.

(* a pool move that keeps each descriptor's number of places *)
Lemma inv_pool_move t ps qu ws : kind K = Pool ->
  (closed t = true -> fdmap t = [] -> pollset t = [] -> ps = []) ->
  (active t = true -> forall x, cnt x (pollset t) + cnt x (queue t) + cnt x (held t) = (if mem x (fdmap t) then 1 else 0) ->
     cnt x ps + cnt x qu + cnt x (flat_map slot_cids ws) = cnt x (pollset t) + cnt x (queue t) + cnt x (held t)) ->
  Inv t -> Inv (with_pool t (fdmap t) ps qu ws).
Proof.
  intros Kp Hps Hocc (I1 & I2 & I3). split; [|split].
  - apply inv1_with_pool; [exact Kp| |exact I1]. intros Hc Ef Ep. split; [exact Ef|exact (Hps Hc Ef Ep)].
  - eapply inv2_tables; [..|exact I2]; reflexivity.
  - intros A x. specialize (I3 A x). unfold held. cbn [active fdmap pollset queue workers with_pool]. now rewrite (Hocc A x I3).
Qed.
Lemma held_released x ws w c n : nth_error ws w = Some (Some (c, n)) ->
  cnt x (flat_map slot_cids (set_nth w None ws)) + (if Nat.eqb x c then 1 else 0) = cnt x (flat_map slot_cids ws).
Proof. intros Hw. pose proof (held_set_nth x _ _ _ None Hw) as G. cbv beta iota zeta in G. lia. Qed.

Lemma inv_trans s e s' : Inv s -> trans s e s' -> Inv s'.
Proof.
  intros I T. destruct T.
  - (* t_connect *) now apply inv_connect.
  - (* t_accept *) now apply inv_accept.
  - (* t_send *) apply inv_local; [repeat split|exact I].
  - (* t_leave *) apply inv_local; [apply leave_core|exact I].
  - (* t_refused *) apply inv_finish_own; [assumption|now apply fin_ok_unauth|exact I].
  - (* t_connected *) apply inv_set_conn; [intros a f B L; now apply ok_authd|exact I].
  - (* t_authenticated *) apply inv_track_served; [cbn; rewrite upd_same; exact Sg|]. apply inv_set_conn; [intros a f B L; now apply ok_authd|exact I].
  - (* t_ended *) apply inv_finish_own; cbn; rewrite ?upd_same.
    + rewrite close_conn_stg. destruct Hk as [->|[rest ->]]; exact Sg.
    + apply fin_ok_close.
    + apply inv_set_conn; [|exact I]. intros a f B L H. apply ok_close, (ok_core (rebuffered_core _ _ Hk)), H.
  - (* t_read *) exact (inv_consumed C I).
  - (* t_close_request *) apply inv_finish_own; rewrite ?serve_on_same.
    + now rewrite served_conn_stg.
    + now apply fin_ok_served_close.
    + exact (inv_consumed (cons_serve s c q rest Hn) I).
  - (* t_auth_ends *) now apply inv_auth_ends.
  - (* t_poll_ready *)
    change (Inv (with_pool s (fdmap s) (rm c (pollset s)) (queue s ++ [c]) (workers s))).
    apply inv_pool_move; [exact Kp|now intros _ _ ->| |exact I]. intros A x Hx. fold (held s).
    rewrite cnt_rm, cnt_app, cnt_one. destruct (Nat.eqb x c) eqn:E; [|lia].
    apply Nat.eqb_eq in E. subst. apply cnt_pos_mem in Mp. destruct (mem c (fdmap s)); lia.
  - (* t_poll_hup *)
    destruct I as (I1 & I2 & I3). apply inv_drop; [exact Kp| | |].
    + apply inv1_with_pool; [exact Kp| |exact I1]. intros _ -> ->. auto.
    + eapply inv2_tables; [..|exact I2]; reflexivity.
    + intros A x. specialize (I3 A x). pool_fields. unfold held in I3. rewrite cnt_rm. destruct (Nat.eqb x c) eqn:E; [|exact I3].
      apply Nat.eqb_eq in E. subst. apply cnt_pos_mem in Mp. destruct (mem c (fdmap s)); lia.
  - (* t_take *)
    apply inv_pool_move; [exact Kp|auto| |exact I]. intros A x Hx. unfold held in *. rewrite Hq, cnt_cons in *.
    pose proof (held_set_nth x _ _ _ (Some (c, Nat.max 1 (batch K))) Hw) as G. cbv beta iota zeta in G. lia.
  - (* t_requeue *)
    apply (inv_consumed C) in I. rewrite <- (consumed_workers C) in Hw.
    change (Inv (with_pool s1 (fdmap s1) (pollset s1) (queue s1 ++ [c]) (set_nth w None (workers s1)))).
    apply inv_pool_move; [exact Kp|auto| |exact I]. intros A x Hx. unfold held. rewrite cnt_app, cnt_one, <- (held_released x _ w c n Hw). lia.
  - (* t_park *)
    apply (inv_consumed C) in I. rewrite <- (consumed_workers C) in Hw.
    change (Inv (with_pool s1 (fdmap s1) (pollset s1 ++ [c]) (queue s1) (set_nth w None (workers s1)))).
    apply inv_pool_move; [exact Kp| | |exact I].
    + destruct (consumed_tables C) as (_ & _ & _ & _ & _ & Ef & _). rewrite Ef. intros _ E. rewrite E in Mf. discriminate.
    + intros A x Hx. unfold held. rewrite cnt_app, cnt_one, <- (held_released x _ w c n Hw). lia.
  - (* t_dropped *)
    apply (inv_consumed C) in I. rewrite <- (consumed_workers C) in Hw. destruct I as (I1 & I2 & I3).
    apply inv_drop; [exact Kp| | |].
    + now apply inv1_with_pool.
    + eapply inv2_tables; [..|exact I2]; reflexivity.
    + intros A x. specialize (I3 A x). pool_fields. unfold held in I3. rewrite <- (held_released x _ w c n Hw) in I3.
      destruct (Nat.eqb x c), (mem x (fdmap s1)); lia.
  - (* t_hold *)
    apply (inv_consumed C) in I. rewrite <- (consumed_workers C) in Hw.
    apply inv_pool_move; [exact Kp|auto| |exact I]. intros A x Hx. unfold held.
    pose proof (held_set_nth x _ _ _ (Some (c, m)) Hw) as G. cbv beta iota zeta in G. lia.
  - (* t_accept_error *) exact I.
  - (* t_accept_fatal *) apply inv_server_close, I.
  - (* t_spawn_fail *) now apply inv_spawn_fail.
  - (* t_close *) apply inv_server_close, I.
Qed.

Lemma inv_step s e s' : Inv s -> step e s = Some s' -> Inv s'.
Proof. intros I H%step_trans. exact (inv_trans _ _ _ I H). Qed.
Lemma inv_reach_by l s : reach_by l s -> Inv s.
Proof. induction 1; [apply inv_init|eapply inv_step; eassumption]. Qed.
Lemma inv_reach s : reach s -> Inv s.
Proof. intros [l H]. eapply inv_reach_by, H. Qed.

Lemma inv_at s x : Inv s -> ok_at s x.
Proof. intros (_ & I2 & _). now apply inv2_at. Qed.
Lemma fdmap_pool s c : Inv1 s -> mem c (fdmap s) = true -> kind K = Pool.
Proof.
  intros I1 M. apply (inv1_pool_only s _ I1); [auto|]. intros Nk. rewrite (proj1 (i_nonpool _ I1 Nk)) in M. discriminate.
Qed.

Definition serving (g : stage) : bool := match g with Own | Authing | Pooled => true | _ => false end.
(* does close() reach the connections being served?  threaded / one-shot: always; pool, forking: by the generated facts
   (outside the pool this is [tracked]) *)
Definition close_reaches : bool :=
  match kind K with Threaded | OneShot => negb (loose K) | Pool => pool_close_drops (fx K) | Forking => fork_parent_keeps (fx K) end.

Lemma pooled_in_fdmap s c : Inv s -> stg (conns s c) = Pooled -> mem c (fdmap s) = true /\ authd (conns s c) = true.
Proof. intros I Hs. destruct (inv_at s c I) as [_ Hp]. unfold placed in Hp. rewrite Hs in Hp. tauto. Qed.
Lemma pooled_is_pool s c : Inv s -> stg (conns s c) = Pooled -> kind K = Pool.
Proof. intros I Hs. apply (fdmap_pool s c); [apply I|apply (pooled_in_fdmap s c I Hs)]. Qed.

Lemma shut_after_close s x :
  shut (conn_after_close s x) = shut (conns s x) || mem x (backlog s) || mem x (clients s)
                           || (pool_fix && mem x (fdmap s) && authd (conns s x) && negb (cclosed (conns s x))).
Proof.
  unfold conn_after_close. destruct (mem x (backlog s)), (mem x (clients s)), (pool_fix && mem x (fdmap s));
  cbn [shut k_stage k_shut]; rewrite ?close_conn_shut; cbn [shut authd cclosed k_stage k_shut andb]; destruct (shut (conns s x)); reflexivity.
Qed.

Lemma tracked_of_reaches : close_reaches = true -> kind K <> Pool -> tracked = true.
Proof. unfold close_reaches, tracked. destruct (kind K); congruence. Qed.
Lemma pool_fix_of_reaches : close_reaches = true -> kind K = Pool -> pool_fix = true.
Proof. unfold close_reaches, pool_fix. intros Hr Kp. rewrite Kp in *. exact Hr. Qed.

Lemma no_pooled_when_closed s c : Inv s -> closed s = true -> close_reaches = true -> stg (conns s c) <> Pooled.
Proof.
  intros I Hc Hr Sg. destruct (pooled_in_fdmap s c I Sg) as [M _]. destruct I as (I1 & _).
  rewrite (proj1 (i_closed_pool _ I1 Hc (pool_fix_of_reaches Hr (fdmap_pool s c I1 M)))) in M. discriminate.
Qed.
Lemma worker_reached s c : Inv s -> close_reaches = true -> stg (conns s c) = Own \/ stg (conns s c) = Authing ->
  mem c (clients s) = true \/ shut (conns s c) = true.
Proof.
  intros I Hr Hs. destruct (inv_at s c I) as [_ Hp]. unfold placed in Hp. destruct Hs as [Hs|Hs]; rewrite Hs in Hp; [|tauto].
  destruct Hp as (Nk & T & _). apply T, tracked_of_reaches; assumption.
Qed.
Lemma serving_cases g : serving g = true -> (g = Own \/ g = Authing) \/ g = Pooled.
Proof. destruct g; try discriminate; auto. Qed.
Lemma serving_shut_when_closed s c : Inv s -> closed s = true -> close_reaches = true ->
  serving (stg (conns s c)) = true -> shut (conns s c) = true.
Proof.
  intros I Hc Hr [Hs|Hs]%serving_cases; [|now destruct (no_pooled_when_closed s c I Hc Hr)].
  destruct (worker_reached s c I Hr Hs) as [M|Sh]; [|exact Sh].
  destruct I as (I1 & _). rewrite (proj1 (i_closed_clients _ I1 Hc)) in M. discriminate.
Qed.
Lemma serving_shut_by_close s c : Inv s -> close_reaches = true ->
  serving (stg (conns s c)) = true -> shut (conn_after_close s c) = true.
Proof.
  intros I Hr Hs%serving_cases. rewrite shut_after_close. destruct Hs as [Hs|Hs].
  - destruct (worker_reached s c I Hr Hs) as [-> | ->]; now rewrite ?orb_true_r.
  - destruct (pooled_in_fdmap s c I Hs) as [M A]. destruct (inv_at s c I) as [[_ Hcc] _].
    rewrite (pool_fix_of_reaches Hr (fdmap_pool s c (proj1 I) M)), M, A. destruct (cclosed (conns s c)); [|now rewrite !orb_true_r].
    now rewrite (proj2 (Hcc eq_refl)).
Qed.

Theorem no_residue_closed s : reach s -> closed s = true ->
  clients s = [] /\ backlog s = [] /\ (pool_fix = true -> fdmap s = [] /\ pollset s = []) /\ active s = false /\ lopen s = false.
Proof.
  intros R Hc. pose proof (inv_reach _ R) as (I1 & _ & _). destruct (i_closed_clients _ I1 Hc) as [e1 e2].
  destruct (inv1_flags s I1) as [Ha Hl]. rewrite Hc in Ha, Hl. repeat (split; [assumption|]). split; [|auto].
  exact (i_closed_pool _ I1 Hc).
Qed.
Lemma reach_close s : reach s -> reach (server_close K s).
Proof. intros [l R]. exists (l ++ [EClose]). now apply (reachS decomp decode K l s EClose). Qed.
Theorem close_ends_clients s : reach s -> close_reaches = true ->
  let s' := server_close K s in
  closed s' = true /\ active s' = false /\ lopen s' = false /\ clients s' = [] /\ backlog s' = []
  /\ forall c, serving (stg (conns s c)) = true -> shut (conns s' c) = true.
Proof.
  intros R Hr s'. destruct (no_residue_closed s' (reach_close s R) (sc_closed s)) as (e1 & e2 & _ & e3 & e4).
  split; [apply sc_closed|]. repeat (split; [assumption|]).
  intros c Hs. subst s'. pose proof (inv_reach _ R) as I. destruct (closed s) eqn:Ec.
  - rewrite sc_again by exact Ec. now apply serving_shut_when_closed.
  - rewrite sc_conns by exact Ec. now apply serving_shut_by_close.
Qed.

Theorem close_idempotent s : server_close K (server_close K s) = server_close K s.
Proof. apply sc_again, sc_closed. Qed.
Theorem close_always_enabled s : step EClose s = Some (server_close K s).
Proof. reflexivity. Qed.

Theorem hooks_closed s c : reach s -> hooks (conns s c) = if cclosed (conns s c) then 1 else 0.
Proof. intros R. apply (inv_at s c (inv_reach _ R)). Qed.

Lemma worker_unblocked s c :
  (stg (conns s c) = Own \/ stg (conns s c) = Authing) -> (gone (conns s c) = true \/ shut (conns s c) = true) ->
  exists s', step (EWork c) s = Some s'.
Proof.
  intros Hs Hg. unfold Server.step, Server.work.
  destruct Hs as [Hs|Hs]; rewrite Hs.
  - destruct (authd (conns s c)); cbn [negb].
    + destruct (shut (conns s c)) eqn:Sh; [eauto|]. destruct Hg as [Hg|Hg]; [|discriminate]. rewrite Hg.
      destruct (next_input (inb (conns s c))); try destruct (is_close q); eauto.
    + destruct (shut (conns s c)) eqn:Sh; [cbn; eauto|]. destruct Hg as [Hg|Hg]; [|discriminate]. rewrite Hg. cbn [orb andb].
      destruct (abeh (conns s c)); cbn [is_stall]; destruct (has_auth K); eauto.
  - destruct Hg as [-> | ->]; rewrite ?orb_true_r; cbn; eauto.
Qed.

Definition quiescent := Server.quiescent decomp decode K.
(* after close() only the connections' own workers can still move *)
Lemma quiescent_inactive s : active s = false -> (forall c, work c s = None) ->
  (forall w, nth_error (workers s) w = Some None \/ nth_error (workers s) w = None) -> quiescent s.
Proof.
  intros Ha Hw Hi e He. destruct e; try discriminate He; cbn [Server.step].
  - (* EAccept *) destruct (backlog s); [reflexivity|]. now rewrite Ha.
  - (* EWork *) apply Hw.
  - (* EPoll *) destruct (kind K); try reflexivity. unfold Server.poll_step. now rewrite Ha.
  - (* ETake *) destruct (kind K); try reflexivity. unfold Server.take_step. destruct (Hi w) as [-> | ->]; [|reflexivity].
    destruct (queue s); [reflexivity|]. now rewrite Ha.
  - (* EServe *) destruct (kind K); try reflexivity. unfold Server.serve_step. destruct (Hi w) as [-> | ->]; reflexivity.
Qed.
Lemma quiet_worker s c : quiescent s -> (stg (conns s c) = Own \/ stg (conns s c) = Authing) ->
  (gone (conns s c) = true \/ shut (conns s c) = true) -> False.
Proof. intros Q Hs Hg. destruct (worker_unblocked s c Hs Hg) as [s' E]. rewrite (Q (EWork c) eq_refl) in E. discriminate. Qed.

Theorem closed_and_quiet s : reach s -> closed s = true -> close_reaches = true -> quiescent s ->
  forall c, serving (stg (conns s c)) = false /\ (authd (conns s c) = true -> hooks (conns s c) = 1 /\ stg (conns s c) = Finished).
Proof.
  intros R Hc Hr Q c. pose proof (inv_reach _ R) as I.
  assert (Hs : serving (stg (conns s c)) = false).
  { destruct (serving (stg (conns s c))) eqn:Sv; [exfalso|reflexivity].
    pose proof (serving_shut_when_closed _ _ I Hc Hr Sv) as Sh.
    apply serving_cases in Sv. destruct Sv as [Sv|Sv]; [apply (quiet_worker s c Q Sv); auto|now apply (no_pooled_when_closed s c I Hc Hr)]. }
  split; [exact Hs|]. intros Ha. destruct (inv_at s c I) as [[Hh _] Hp]. unfold placed in Hp.
  destruct (stg (conns s c)); try discriminate Hs.
  - (* Fresh: never authenticated *) destruct Hp as (_ & _ & _ & Au). congruence.
  - (* Backlog: never authenticated *) destruct Hp as (_ & _ & Au). congruence.
  - (* Finished *) destruct Hp as (_ & _ & _ & Fi). rewrite Hh, (Fi Ha). auto.
Qed.

Lemma held_witness x ws : cnt x (flat_map slot_cids ws) > 0 -> exists w n, nth_error ws w = Some (Some (x, n)).
Proof.
  intros H. apply count_occ_In, in_flat_map in H. destruct H as ([[c n]|] & Hy & Hx); [|destruct Hx]. destruct Hx as [<-|[]].
  apply In_nth_error in Hy. destruct Hy as [w Hw]. eauto.
Qed.

Definition pool_has_idle_worker (s : st) : Prop := exists w, nth_error (workers s) w = Some None.
Definition clients_guard : Prop := kind K <> Pool \/ pool_fail_discards (fx K) = true.

Lemma serve_unblocked s w c n : kind K = Pool -> nth_error (workers s) w = Some (Some (c, S n)) -> gone (conns s c) = true ->
  exists s', step (EServe w) s = Some s'.
Proof.
  intros Kp Hw Hg. unfold Server.step, Server.serve_step. rewrite Kp, Hw.
  destruct (negb (mem c (fdmap s))); [eauto|]. rewrite Hg.
  destruct (next_input (inb (conns s c))); try destruct (is_close q); try destruct n as [|m]; try destruct (pool_catches_base (fx K)); eauto.
Qed.
Lemma poll_enabled s c : kind K = Pool -> active s = true -> mem c (pollset s) = true ->
  negb (is_none (hd_error (inb (conns s c)))) || gone (conns s c) = true -> exists s', step (EPoll c false) s = Some s'.
Proof. intros Kp Ha Mp Hr. unfold Server.step, Server.poll_step. rewrite Kp, Ha, Mp, Hr. cbn. eauto. Qed.
Lemma take_enabled s w c rest : kind K = Pool -> active s = true -> nth_error (workers s) w = Some None -> queue s = c :: rest ->
  step (ETake w) s = Some (with_pool s (fdmap s) (pollset s) rest (set_nth w (Some (c, Nat.max 1 (batch K))) (workers s))).
Proof. intros Kp Ha Hw Hq. unfold Server.step, Server.take_step. now rewrite Kp, Hw, Hq, Ha. Qed.
Definition no_dead_worker (s : st) : Prop := forall w c, nth_error (workers s) w <> Some (Some (c, 0)).

Theorem no_residue_running s : reach s -> active s = true -> quiescent s ->
  forall c, gone (conns s c) = true ->
    stg (conns s c) <> Own /\ stg (conns s c) <> Authing
    /\ (clients_guard -> mem c (clients s) = false)
    /\ (no_dead_worker s -> pool_has_idle_worker s \/ queue s = [] ->
        stg (conns s c) <> Pooled /\ mem c (fdmap s) = false /\ mem c (pollset s) = false /\ mem c (queue s) = false /\ cnt c (held s) = 0).
Proof.
  intros R Ha Q c Hg. pose proof (inv_reach _ R) as I. pose proof I as (I1 & _ & I3).
  assert (Hs : stg (conns s c) = Own \/ stg (conns s c) = Authing -> False) by (intros E; apply (quiet_worker s c Q E); auto).
  split; [auto|]. split; [auto|]. split.
  - intros G. destruct (mem c (clients s)) eqn:M; [exfalso|reflexivity].
    destruct (inv_at s c I) as [_ Hp]. unfold placed in Hp. rewrite M in Hp.
    destruct (stg (conns s c)); try (destruct Hp as [Hp _]; discriminate Hp); auto.
    destruct Hp as [Hp _]. destruct (Hp eq_refl). destruct G; congruence.
  - intros ND G. specialize (I3 Ha c).
    assert (Mf : mem c (fdmap s) = false).
    { destruct (mem c (fdmap s)) eqn:M; [exfalso|reflexivity].
      pose proof (fdmap_pool s c I1 M) as Kp.
      destruct (Nat.eq_dec (cnt c (pollset s)) 0) as [Zp|Zp]; [destruct (Nat.eq_dec (cnt c (queue s)) 0) as [Zq|Zq]|].
      - (* in a worker's hands *)
        destruct (held_witness c (workers s)) as (w & n & Hw); [unfold held in I3; lia|].
        destruct n as [|n]; [exfalso; exact (ND w c Hw)|].
        destruct (serve_unblocked s w c n Kp Hw Hg) as [s' F]. rewrite (Q (EServe w) eq_refl) in F. discriminate.
      - (* in the queue: an idle worker takes the head *)
        destruct G as [[w Hw]|G]; [|rewrite G in Zq; cbn in Zq; lia].
        destruct (queue s) as [|c' rest] eqn:Eq; [cbn in Zq; lia|].
        pose proof (take_enabled s w c' rest Kp Ha Hw Eq) as F. rewrite (Q (ETake w) eq_refl) in F. discriminate.
      - (* in the poll set: end-of-stream makes it readable *)
        destruct (poll_enabled s c Kp Ha) as [s' F]; [apply cnt_pos_mem; lia|now rewrite Hg, orb_true_r|].
        rewrite (Q (EPoll c false) eq_refl) in F. discriminate. }
    rewrite Mf in I3. split; [intros E; destruct (pooled_in_fdmap s c I E); congruence|]. split; [exact Mf|].
    repeat split; try (apply cnt_zero_mem; lia). lia.
Qed.

(* nothing accepted and the loop free; or one connection accepted, the loop busy with it until closed, and closed once it is Finished *)
Definition OneInv (s : st) : Prop :=
  (accepted s = [] /\ busy s = None)
  \/ exists c, accepted s = [c] /\ (busy s = Some c \/ closed s = true) /\ (stg (conns s c) = Finished -> closed s = true).

Lemma one_frame s s' :
  accepted s' = accepted s -> busy s' = busy s -> (closed s = true -> closed s' = true) ->
  (forall c, stg (conns s' c) = Finished -> stg (conns s c) = Finished \/ closed s' = true) -> OneInv s -> OneInv s'.
Proof.
  intros e1 e2 Hc Hf [[A B]|(c & A & B & F)]; [left; rewrite e1, e2; auto|right].
  exists c. rewrite e1, e2. split; [exact A|]. split; [tauto|]. intros E. destruct (Hf c E); auto.
Qed.
Lemma one_set_conn s c k' : (stg k' = Finished -> stg (conns s c) = Finished) -> OneInv s -> OneInv (set_conn s c k').
Proof. intros Hk. apply one_frame; auto. intros x. cbn. conn_at x c; auto. Qed.
Lemma one_consumed s c s1 : consumed s c s1 -> OneInv s -> OneInv s1.
Proof.
  intros [|rest|q rest _]; [auto|apply one_set_conn; auto|].
  destruct (serve_on_tables s c q rest) as (_ & e2 & _ & e4 & _ & _ & _ & _ & _ & e10 & _).
  apply one_frame; auto; [now rewrite e2|]. intros x. rewrite serve_on_conns. destruct (Nat.eqb x c) eqn:E; [|auto].
  apply Nat.eqb_eq in E. subst. rewrite served_conn_stg. auto.
Qed.
Lemma one_closed s s' : closed s' = true -> accepted s' = accepted s -> busy s' = busy s \/ busy s' = None -> OneInv s -> OneInv s'.
Proof.
  intros Hc Ea Hb [[A B]|(c & A & _)]; [left; split; [congruence|destruct Hb; congruence]|right; exists c; split; [congruence|auto]].
Qed.
Lemma one_server_close s : OneInv s -> OneInv (server_close K s).
Proof. apply one_closed; [apply sc_closed|apply sc_accepted|left; apply sc_busy]. Qed.
Lemma one_finish t c : kind K = OneShot -> OneInv t -> OneInv (finish_own K c t).
Proof.
  intros Ko. rewrite finish_own_eq, Ko. apply one_closed; [apply sc_closed|now rewrite sc_accepted|right; now rewrite sc_busy].
Qed.

Lemma one_step s e s' : kind K = OneShot -> Inv1 s -> Inv2 s -> OneInv s -> trans s e s' -> OneInv s'.
Proof.
  intros Ko I1 I2 O T. destruct T.
  - (* t_connect *) apply (one_frame (set_conn s c (k_abeh (k_stage (conns s c) Backlog) a))); auto. apply one_set_conn; [discriminate|exact O].
  - (* t_accept: only from the state in which nothing was accepted yet *)
    destruct Rd as (Ha & _ & Bn). pose proof (inv1_open _ I1 Ha) as Hc.
    destruct O as [[A B]|(c0 & A & [B|B] & F)]; try congruence.
    right. exists c. unfold accept. rewrite Ko. cbn. rewrite A, upd_same. split; [reflexivity|]. split; [now left|discriminate].
  - (* t_send *) apply one_set_conn; auto.
  - (* t_leave *) subst k. apply one_set_conn; [|exact O]. now rewrite (proj1 (leave_core (conns s c) abrupt)).
  - (* t_refused *) now apply one_finish.
  - (* t_connected *) apply one_set_conn; auto.
  - (* t_authenticated *) apply (one_frame (set_conn s c (k_authd (conns s c)))); auto. apply one_set_conn; auto.
  - (* t_ended *) apply one_finish; [exact Ko|]. apply one_set_conn; [|exact O].
    intros E. rewrite close_conn_stg, (proj1 (rebuffered_core _ _ Hk)), Sg in E. discriminate E.
  - (* t_read *) now apply (one_consumed s c).
  - (* t_close_request *) apply one_finish; [exact Ko|]. apply (one_consumed s c); [now apply (cons_serve s c q rest)|exact O].
  - (* t_auth_ends: no inline authenticator outside the pool *)
    exfalso. refine (inv2_no_authing s I2 _ c Sg). congruence.
  - (* t_poll_ready *) congruence.
  - (* t_poll_hup *) congruence.
  - (* t_take *) congruence.
  - (* t_requeue *) congruence.
  - (* t_park *) congruence.
  - (* t_dropped *) congruence.
  - (* t_hold *) congruence.
  - (* t_accept_error *) exact O.
  - (* t_accept_fatal *) now apply one_server_close.
  - (* t_spawn_fail *) unfold spawns in Sp. rewrite Ko in Sp. discriminate.
  - (* t_close *) now apply one_server_close.
Qed.

Lemma oneinv_reach s : kind K = OneShot -> reach s -> OneInv s /\ Inv s.
Proof.
  intros Ko [l R]. induction R.
  - split; [left; split; reflexivity|apply inv_init].
  - destruct IHR as [O I]. split; [|eapply inv_step; eassumption]. destruct I as (I1 & I2 & _).
    eapply one_step; eauto using step_trans.
Qed.
(* histories as lists: every event must be enabled *)
Fixpoint exec (l : list event) (s : st) : option st :=
  match l with [] => Some s | e :: r => match step e s with Some s' => exec r s' | None => None end end.
Lemma exec_app l1 l2 s : exec (l1 ++ l2) s = match exec l1 s with Some s' => exec l2 s' | None => None end.
Proof. revert s. induction l1 as [|e l1 IH]; intros s; cbn; [reflexivity|]. destruct (step e s); [apply IH|reflexivity]. Qed.
Lemma exec_reach_from l : forall l0 s0 s, reach_by l0 s0 -> exec l s0 = Some s -> reach_by (l0 ++ l) s.
Proof.
  induction l as [|e l IH]; intros l0 s0 s R H; cbn in H.
  - inversion H; subst. now rewrite app_nil_r.
  - destruct (step e s0) as [s1|] eqn:E; [|discriminate].
    replace (l0 ++ e :: l) with ((l0 ++ [e]) ++ l) by (rewrite <- app_assoc; reflexivity).
    eapply IH; [|exact H]. econstructor; eassumption.
Qed.
Lemma exec_reach l s : exec l (init K) = Some s -> reach s.
Proof. intros H. exists ([] ++ l). eapply exec_reach_from; [constructor|exact H]. Qed.

Lemma nth_error_repeat_none (n w : nat) : nth_error (repeat (@None (cid * nat)) n) w = Some None \/ nth_error (repeat (@None (cid * nat)) n) w = None.
Proof. revert w. induction n as [|n IH]; intros [|w]; cbn; auto. Qed.

(* states that the witness runs of props/C17.v pass through *)
Definition w_connected (c : cid) (a : auth) : st :=
  with_backlog (set_conn (init K) c (k_abeh (k_stage fresh_conn Backlog) a)) [c].
Definition w_accepted_base (c : cid) (a : auth) : st := accept_base c [] (w_connected c a).

(* the client an event is about *)
Definition subject (s : st) (e : event) : option cid :=
  match e with
  | EConnect c _ | ESend c _ | ELeave c _ | EWork c | EPoll c _ => Some c
  | EAccept | ESpawnFail => hd_error (backlog s)
  | EServe w => match nth_error (workers s) w with Some (Some (c, _)) => Some c | _ => None end
  | ETake _ | EClose | EAcceptFail => None
  end.

(* what the server does for connection c leaves the flag `closed` and every other connection's record as they were
        (the one-shot server is excluded: its worker's last step closes the server) *)
Definition frame (c : cid) (s s' : st) : Prop := closed s' = closed s /\ forall x, x <> c -> conns s' x = conns s x.
Lemma frame_trans c s s1 s2 : frame c s s1 -> frame c s1 s2 -> frame c s s2.
Proof. intros [e1 H1] [e2 H2]. split; [congruence|]. intros x N. now rewrite H2, H1. Qed.
Lemma set_conn_frame s c k : frame c s (set_conn s c k).
Proof. split; [reflexivity|]. intros x N. apply upd_other, N. Qed.
Lemma consumed_frame s c s1 : consumed s c s1 -> frame c s s1.
Proof. intros C. split; [apply (consumed_tables C)|]. intros x. apply (consumed_other C). Qed.
Lemma accept_frame c rest s : frame c s (accept K c rest s).
Proof.
  apply accept_elim; cbv zeta; intros; (split; [reflexivity|]); intros x N; unfold pool_register, pool_reject, accept_base; cbn;
  rewrite ?upd_other by exact N; reflexivity.
Qed.
Lemma finish_own_frame c s : kind K <> OneShot -> frame c s (finish_own K c s).
Proof. intros Nk. rewrite finish_own_spawned by exact Nk. split; [reflexivity|]. intros x N. apply upd_other, N. Qed.
Lemma drop_frame c s : frame c s (drop c s).
Proof. rewrite drop_eq. destruct (mem c (fdmap s)); (split; [reflexivity|]); intros x N; [apply upd_other, N|reflexivity]. Qed.
Lemma spawn_fail_frame c rest s : kind K <> OneShot -> accept_survives_spawn_failure (fx K) = true -> frame c s (spawn_fail K c rest s).
Proof. intros Nk Hf. unfold spawn_fail. rewrite Hf. eapply frame_trans; [apply accept_frame|now apply finish_own_frame]. Qed.

(* the events that close the server: close() itself, and -- on a tree that does not survive them -- a failing accept() and a worker
   that cannot be started *)
Definition closing (e : event) : bool :=
  match e with
  | EClose => true
  | EAcceptFail => negb (accept_survives_oserror (fx K))
  | ESpawnFail => negb (accept_survives_spawn_failure (fx K))
  | _ => false
  end.
Lemma trans_frame s e s' : kind K <> OneShot -> closing e = false -> trans s e s' ->
  match subject s e with Some c => frame c s s' | None => closed s' = closed s /\ conns s' = conns s end.
Proof.
  intros Nk Ce T. destruct T; cbn [closing] in Ce; try discriminate Ce; cbn [subject]; rewrite ?Hb, ?Hw; cbn [hd_error].
  - (* t_connect *) split; [reflexivity|]. intros y N. apply upd_other, N.
  - (* t_accept *) apply accept_frame.
  - (* t_send *) apply set_conn_frame.
  - (* t_leave *) apply set_conn_frame.
  - (* t_refused *) now apply finish_own_frame.
  - (* t_connected *) apply set_conn_frame.
  - (* t_authenticated *) split; [reflexivity|]. intros y N. apply upd_other, N.
  - (* t_ended *) eapply frame_trans; [apply set_conn_frame|now apply finish_own_frame].
  - (* t_read *) now apply consumed_frame.
  - (* t_close_request *) eapply frame_trans; [apply (consumed_frame s c), (cons_serve s c q rest), Hn|now apply finish_own_frame].
  - (* t_auth_ends *) split; [reflexivity|]. intros y N. apply upd_other, N.
  - (* t_poll_ready *) split; reflexivity.
  - (* t_poll_hup *) apply (drop_frame c (with_pool s _ _ _ _)).
  - (* t_take *) repeat split.
  - (* t_requeue *) apply (consumed_frame s c s1 C).
  - (* t_park *) apply (consumed_frame s c s1 C).
  - (* t_dropped *) eapply frame_trans; [apply (consumed_frame s c s1 C)|apply (drop_frame c (set_worker s1 w None))].
  - (* t_hold *) apply (consumed_frame s c s1 C).
  - (* t_accept_error *) repeat split.
  - (* t_accept_fatal *) rewrite Fa in Ce. discriminate Ce.
  - (* t_spawn_fail *) apply spawn_fail_frame; [exact Nk|now apply negb_false_iff].
Qed.

Theorem noninterference s e s' : kind K <> OneShot -> e <> EClose -> e <> EAcceptFail ->
  (e = ESpawnFail -> accept_survives_spawn_failure (fx K) = true) -> step e s = Some s' ->
  forall x, subject s e <> Some x -> conns s' x = conns s x.
Proof.
  intros Nk Ne Ne2 Hsf T%step_trans x Hx.
  assert (Ce : closing e = false) by (destruct e; try reflexivity; try congruence; cbn; now rewrite Hsf).
  pose proof (trans_frame s e s' Nk Ce T) as F. destruct (subject s e) as [c|]; [apply F; congruence|now rewrite (proj2 F)].
Qed.

Lemma ep4_server_close t x : ep4 (conns (server_close K t) x) = ep4 (conns t x).
Proof.
  destruct (closed t) eqn:Ec; [now rewrite sc_again|]. rewrite sc_conns by exact Ec.
  assert (Sg : forall k g, ep4 (k_stage k g) = ep4 k) by reflexivity. assert (Sh : forall k, ep4 (k_shut k) = ep4 k) by reflexivity.
  unfold conn_after_close. destruct (mem x (backlog t)), (mem x (clients t)), (pool_fix && mem x (fdmap t));
  repeat rewrite ?Sg, ?Sh, ?ep4_close; reflexivity.
Qed.
Lemma ep4_set_conn t c k x : ep4 k = ep4 (conns t c) -> ep4 (conns (set_conn t c k) x) = ep4 (conns t x).
Proof. intros E. cbn. conn_at x c; [exact E|reflexivity]. Qed.
Lemma ep4_finish_own c t x : ep4 (conns (finish_own K c t) x) = ep4 (conns t x).
Proof.
  assert (E : ep4 (conns (fo_core c t) x) = ep4 (conns t x)) by (apply (ep4_set_conn t c); reflexivity).
  rewrite finish_own_eq. destruct (kind K); try exact E. now rewrite ep4_server_close.
Qed.
Lemma ep4_drop c t x : ep4 (conns (drop c t) x) = ep4 (conns t x).
Proof. rewrite drop_eq. destruct (mem c (fdmap t)); [|reflexivity]. apply (ep4_set_conn t c), ep4_close. Qed.
Lemma ep4_accept c rest t x : ep4 (conns (accept K c rest t) x) = ep4 (conns t x).
Proof.
  apply accept_elim; cbv zeta; intros; unfold pool_register, pool_reject, accept_base; cbn; conn_at x c; reflexivity.
Qed.
Lemma ep4_spawn_fail c rest t x : ep4 (conns (spawn_fail K c rest t) x) = ep4 (conns t x).
Proof.
  unfold spawn_fail. destruct (accept_survives_spawn_failure (fx K)); rewrite ?ep4_server_close, ep4_finish_own, ep4_accept; reflexivity.
Qed.
Lemma ep4_consumed s c s1 x : consumed s c s1 ->
  ep4 (conns s1 x) = ep4 (conns s x)
  \/ exists q rest, next_input (inb (conns s x)) = NReq q rest /\ ep4 (conns s1 x) = ep4 (served_conn s x q rest).
Proof.
  intros [|rest|q rest Hn]; [now left|left; now apply ep4_set_conn|].
  rewrite serve_on_conns. destruct (Nat.eqb x c) eqn:E; [|now left]. apply Nat.eqb_eq in E. subst x. right. eauto.
Qed.
Theorem step_ep s e s' : step e s = Some s' ->
  forall x, ep4 (conns s' x) = ep4 (conns s x)
            \/ exists q rest, next_input (inb (conns s x)) = NReq q rest /\ ep4 (conns s' x) = ep4 (served_conn s x q rest).
Proof.
  intros T%step_trans x.
  (* the work is these rewritings *)
  destruct T; rewrite ?ep4_spawn_fail, ?ep4_finish_own, ?ep4_drop, ?ep4_accept, ?ep4_server_close;
    cbn [conns enqueue add_inactive set_worker with_pool with_backlog with_busy with_clients track_served pool_reject];
    try (now left); try (left; now apply ep4_set_conn); try (now apply (ep4_consumed s c)).
  - (* t_leave *) left. apply ep4_set_conn. subst k. destruct abrupt, (authd (conns s c)); reflexivity.
  - (* t_ended *) left. apply ep4_set_conn. rewrite ep4_close. destruct Hk as [->|[rest ->]]; reflexivity.
  - (* t_close_request *) now apply (ep4_consumed s c), cons_serve.
Qed.

(* the endpoint of connection c after the requests l, computed from nothing but c and l *)
Definition ep_of (c : cid) (l : list req) : svc * list oid * list reply :=
  ep_run K c {| Server.cnt := 0; nmade := 0 |} [] [] l.
Lemma ep_run_snoc c l : forall v tb acc q,
  ep_run K c v tb acc (l ++ [q]) =
  let '(v1, tb1, o1) := ep_run K c v tb acc l in let '(v2, tb2, r) := serve_req K c v1 tb1 q in (v2, tb2, o1 ++ [r]).
Proof.
  induction l as [|p l IH]; intros v tb acc q; cbn.
  - destruct (serve_req K c v tb q) as [[v2 tb2] r]. reflexivity.
  - destruct (serve_req K c v tb p) as [[v1 tb1] r1]. apply IH.
Qed.
Lemma ep4_served s c q rest v' tb' r :
  serve_req K c (if class_svc K then own (conns s c) else shared s) (table (conns s c)) q = (v', tb', r) ->
  ep4 (served_conn s c q rest)
  = ((if class_svc K then v' else own (conns s c)), tb', out (conns s c) ++ [r], hist (conns s c) ++ [q]).
Proof. intros Sr. unfold served_conn. rewrite Sr. destruct (is_close q); [rewrite ep4_close|]; reflexivity. Qed.

Lemma omem_In o l : omem o l = true <-> In o l.
Proof.
  unfold omem. rewrite existsb_exists. split.
  - intros (x & H & E). unfold oeqb in E. apply andb_prop in E. destruct E as [E1 E2]. apply Nat.eqb_eq in E1, E2.
    destruct o, x. cbn in *. subst. exact H.
  - intros H. exists o. split; [exact H|]. unfold oeqb. now rewrite !Nat.eqb_refl.
Qed.
Lemma orm1_subset o l x : In x (orm1 o l) -> In x l.
Proof.
  induction l as [|y l IH]; cbn; [auto|]. destruct (oeqb o y); cbn; [auto|]. intros [H|H]; auto.
Qed.
(* an object in the table after a request was there before, or has just been given out; what is given out is the connection's own *)
Lemma serve_req_table c v tb q v' tb' r :
  serve_req K c v tb q = (v', tb', r) ->
  (forall o, In o tb' -> In o tb \/ r = POid o) /\ (forall o, r = POid o -> fst o = owner K c).
Proof.
  unfold serve_req. intros E.
  destruct q as [|o0|o0|o0|o0| | |]; try destruct (omem o0 tb && _); try destruct (omem o0 tb); injection E as <- <- <-;
  (split; [intros o Ho; try apply orm1_subset in Ho; cbn in Ho; intuition congruence|intros o [= <-]; reflexivity]).
Qed.

(* a connection's table holds only what was given out on it, and that belongs to the connection's owner *)
Definition TabInv (s : st) : Prop :=
  forall x, (forall o, In o (table (conns s x)) -> In (POid o) (out (conns s x)))
            /\ (forall o, In o (table (conns s x)) -> fst o = owner K x)
            /\ (forall o, In (POid o) (out (conns s x)) -> fst o = owner K x).
Lemma tabinv_reach s : reach s -> TabInv s.
Proof.
  intros [l R]. induction R; intros x.
  - cbn. repeat split; intros o [].
  - specialize (IHR x). destruct IHR as (I1 & I2 & I3).
    destruct (step_ep _ _ _ H x) as [E|(q & rest & Hn & E)].
    + unfold ep4 in E. injection E as e1 e2 e3 e4. rewrite e2, e3. auto.
    + destruct (serve_req K x (if class_svc K then own (conns s x) else shared s) (table (conns s x)) q) as [[v' tb'] r] eqn:Sr.
      rewrite (ep4_served s x q rest _ _ _ Sr) in E. unfold ep4 in E. injection E as e1 e2 e3 e4. rewrite e2, e3.
      destruct (serve_req_table _ _ _ _ _ _ _ Sr) as [T1 T2].
      split; [|split]; intros o Ho; try rewrite in_app_iff; try rewrite in_app_iff in Ho; cbn in *.
      * destruct (T1 o Ho); auto.
      * destruct (T1 o Ho); auto.
      * destruct Ho as [Ho|[Ho|[]]]; auto.
Qed.

Lemma closed_only_by_closing l s : kind K <> OneShot -> reach_by l s -> closed s = true -> exists e, In e l /\ closing e = true.
Proof.
  intros Nk R. induction R; intros Hc; [discriminate|].
  destruct (closing e) eqn:Ce.
  - exists e. split; [apply in_or_app; right; now left|exact Ce].
  - pose proof (trans_frame _ _ _ Nk Ce (step_trans _ _ _ H)) as F.
    assert (E : closed s' = closed s) by (destruct (subject s e); apply F). rewrite E in Hc. destruct (IHR Hc) as (e0 & I0 & C0).
    exists e0. split; [apply in_or_app; now left|exact C0].
Qed.
Theorem accept_stays_enabled l s : kind K <> OneShot -> reach_by l s -> ~ In EClose l ->
  (accept_survives_oserror (fx K) = true \/ ~ In EAcceptFail l) ->
  (accept_survives_spawn_failure (fx K) = true \/ ~ In ESpawnFail l) -> busy s = None -> backlog s <> [] ->
  exists s', step EAccept s = Some s'.
Proof.
  intros Nk R Nc Nf Ns Hb Hq. assert (I : Inv s) by (eapply inv_reach_by; eassumption). destruct I as (I1 & _ & _).
  assert (Hc : closed s = false).
  { destruct (closed s) eqn:E; [|reflexivity]. exfalso. destruct (closed_only_by_closing l s Nk R E) as (e & I & C).
    destruct e; cbn in C; try discriminate C.
    - apply negb_true_iff in C. destruct Nf; [congruence|auto].
    - apply negb_true_iff in C. destruct Ns; [congruence|auto].
    - auto. }
  destruct (inv1_flags s I1) as [Fa Fl]. rewrite Hc in Fa, Fl.
  destruct (backlog s) as [|c rest] eqn:Eb; [congruence|]. eexists. apply (accept_enabled s c rest Eb). repeat split; assumption.
Qed.
Lemma threaded_forking_never_busy s : kind K = Threaded \/ kind K = Forking -> reach s -> busy s = None.
Proof.
  intros Hk R. destruct (inv_reach s R) as (I1 & _ & _). destruct (busy s) eqn:E; [exfalso|reflexivity].
  destruct (i_busy_kind _ I1) as [F|F]; [congruence|destruct Hk; congruence|destruct Hk; congruence].
Qed.

Definition reply_of (s : st) (c : cid) (q : req) : reply :=
  let k := conns s c in snd (serve_req K c (if class_svc K then own k else shared s) (table k) q).
Lemma served_conn_out s c q rest : out (served_conn s c q rest) = out (conns s c) ++ [reply_of s c q].
Proof.
  unfold reply_of. destruct (serve_req K c _ (table (conns s c)) q) as [[v' tb'] r] eqn:Sr.
  assert (E := ep4_served s c q rest _ _ _ Sr). unfold ep4 in E. now injection E.
Qed.
Lemma served_conn_noclose s c q rest : is_close q = false ->
  stg (served_conn s c q rest) = stg (conns s c) /\ shut (served_conn s c q rest) = shut (conns s c) /\ inb (served_conn s c q rest) = rest.
Proof. intros Eq. unfold served_conn. destruct (serve_req K c _ _ q) as [[v' tb'] r]. rewrite Eq. repeat split. Qed.

Lemma out_drop c t x : out (conns (drop c t) x) = out (conns t x).
Proof. assert (E := ep4_drop c t x). unfold ep4 in E. now injection E. Qed.
Theorem pool_next_step_enabled s c q rest : kind K = Pool -> active s = true -> mem c (fdmap s) = true ->
  next_input (inb (conns s c)) = NReq q rest ->
  (mem c (pollset s) = true -> exists s', step (EPoll c false) s = Some s')
  /\ (forall w r, nth_error (workers s) w = Some None -> queue s = c :: r ->
        exists s1 s2, step (ETake w) s = Some s1 /\ step (EServe w) s1 = Some s2
                      /\ out (conns s2 c) = out (conns s c) ++ [reply_of s c q])
  /\ (forall w n, nth_error (workers s) w = Some (Some (c, S n)) ->
        exists s', step (EServe w) s = Some s' /\ out (conns s' c) = out (conns s c) ++ [reply_of s c q]).
Proof.
  intros Kp Ha Mf Hn.
  assert (Hne : negb (is_none (hd_error (inb (conns s c)))) = true).
  { unfold Server.next_input in Hn. destruct (inb (conns s c)); [discriminate|reflexivity]. }
  assert (Serve : forall t w n, nth_error (workers t) w = Some (Some (c, S n)) -> fdmap t = fdmap s -> conns t = conns s -> shared t = shared s ->
            exists s', step (EServe w) t = Some s' /\ out (conns s' c) = out (conns s c) ++ [reply_of s c q]).
  { intros t w n Hw e1 e2 e3. unfold Server.step, Server.serve_step. rewrite Kp, Hw, e1, Mf, e2, Hn. cbn [negb].
    assert (Eo : out (conns (serve_on K t c q rest) c) = out (conns s c) ++ [reply_of s c q]).
    { rewrite serve_on_same, served_conn_out. unfold reply_of. now rewrite e2, e3. }
    destruct (is_close q); [|destruct n as [|m]]; eexists; (split; [reflexivity|]); rewrite ?out_drop;
    cbn [conns set_worker enqueue with_pool]; exact Eo. }
  split; [|split].
  - intros Mp. apply poll_enabled; auto. now rewrite Hne.
  - intros w r Hw Hq.
    assert (Mx : exists b, Nat.max 1 (batch K) = S b) by (destruct (batch K); cbn; eauto).
    destruct Mx as [b Mx].
    pose proof (take_enabled s w c r Kp Ha Hw Hq) as T. rewrite Mx in T.
    destruct (Serve (with_pool s (fdmap s) (pollset s) r (set_nth w (Some (c, S b)) (workers s))) w b) as (s2 & E2 & O2); try reflexivity.
    { cbn. now rewrite nth_error_set_nth, Nat.eqb_refl, Hw. }
    eexists _, s2. split; [exact T|]. auto.
  - intros w n Hw. apply (Serve s w n Hw); reflexivity.
Qed.

Lemma workers_finish_own c t : workers (finish_own K c t) = workers t.
Proof. rewrite finish_own_eq. destruct (kind K); try reflexivity. now rewrite sc_workers. Qed.
Lemma workers_drop c t : workers (drop c t) = workers t.
Proof. rewrite drop_eq. destruct (mem c (fdmap t)); reflexivity. Qed.
Lemma workers_accept c rest t : workers (accept K c rest t) = workers t.
Proof. apply accept_elim; reflexivity. Qed.
Lemma workers_spawn_fail c rest t : workers (spawn_fail K c rest t) = workers t.
Proof.
  unfold spawn_fail. destruct (accept_survives_spawn_failure (fx K)); rewrite ?sc_workers, workers_finish_own, workers_accept; reflexivity.
Qed.
Lemma no_dead_set_worker t w c m : m <> 0 \/ nth_error (workers t) w = None -> no_dead_worker t -> no_dead_worker (set_worker t w (Some (c, m))).
Proof.
  intros Hm ND w' c'. cbn. rewrite nth_error_set_nth. destruct (Nat.eqb w' w); [|apply ND].
  destruct Hm as [Hm| ->]; [|discriminate]. destruct (nth_error (workers t) w); [|discriminate]. congruence.
Qed.
Lemma no_dead_release t w : no_dead_worker t -> no_dead_worker (set_worker t w None).
Proof.
  intros ND w' c'. cbn. rewrite nth_error_set_nth. destruct (Nat.eqb w' w); [|apply ND]. destruct (nth_error (workers t) w); discriminate.
Qed.
Lemma no_dead_step s e s' : pool_catches_base (fx K) = true -> no_dead_worker s -> step e s = Some s' -> no_dead_worker s'.
Proof.
  intros Hf ND T%step_trans.
  assert (Hc : forall c s1, consumed s c s1 -> no_dead_worker s1).
  { intros c s1 C. unfold no_dead_worker. rewrite (consumed_workers C). exact ND. }
  (* the work is these rewritings *)
  destruct T; unfold no_dead_worker; rewrite ?workers_spawn_fail, ?workers_finish_own, ?workers_drop, ?workers_accept, ?sc_workers;
    try exact ND.
  - (* t_read *) now apply (Hc c).
  - (* t_close_request *) now apply (Hc c), cons_serve.
  - (* t_take: the batch is at least 1 *)
    apply (no_dead_set_worker s w c); [left; destruct (batch K); discriminate|exact ND].
  - (* t_requeue *) now apply no_dead_release, (Hc c).
  - (* t_park *) now apply no_dead_release, (Hc c).
  - (* t_dropped *) now apply no_dead_release, (Hc c).
  - (* t_hold: dead only where BaseException is uncaught *)
    apply (no_dead_set_worker s1 w c); [left; intros ->; rewrite Hm in Hf by reflexivity; discriminate|now apply (Hc c)].
Qed.
Theorem no_dead_worker_when_caught s : pool_catches_base (fx K) = true -> reach s -> no_dead_worker s.
Proof.
  intros Hf [l R]. induction R.
  - intros w c. cbn. destruct (kind K); try (destruct w; discriminate).
    destruct (nth_error_repeat_none (nworkers K) w) as [-> | ->]; discriminate.
  - eapply no_dead_step; eassumption.
Qed.
End P.

(* the thread pool's witness runs of props/C16.v: frames, decoders, configurations, histories *)
Definition partial_frame : list byte := [x00; x00; x00; x0a; x00].          (* header promises 10 bytes; nothing follows *)
Definition good_frame : list byte := [x00; x00; x00; x01; x00; x51; x0a].   (* a complete frame with a one-byte payload *)
Definition w_decomp (b : list byte) : option (list byte) := None.
Definition w_decode (b : list byte) : option req := if bytes_eqb b [x51] then Some QRoot else None.
Definition w_pool (f : facts) (au : bool) : cfg :=
  {| kind := Pool; fx := f; has_auth := au; class_svc := true; nworkers := 2; batch := 10; auth_replaces := false |}.
Definition starve_history : list event :=
  [EConnect 1 AuthOk; EConnect 2 AuthOk; EConnect 3 AuthOk; EAccept; EAccept; EAccept;
   ESend 1 partial_frame; ESend 2 partial_frame; ESend 3 good_frame;
   EPoll 1 false; ETake 0; EPoll 2 false; ETake 1; EPoll 3 false].

(* a client makes the server ask IT something (an unsolicited reply carrying a remote reference -> nested HANDLE_INSPECT) and
   answers with an exception record for SystemExit: on a tree whose _serve_requests does not catch BaseException the pool's
   worker thread ends.  nbThreads = 2, two such clients, one well-behaved client: both workers are dead, the good client's
   request waits in the queue and no thread of the running server can take a step *)
Definition kill_frame : list byte := [x00; x00; x00; x01; x00; x4b; x0a].
Definition k_decode (b : list byte) : option req := if bytes_eqb b [x51] then Some QRoot else if bytes_eqb b [x4b] then Some QKill else None.
Definition k_facts (caught : bool) : facts :=
  {| pool_close_drops := true; pool_fail_discards := true; fork_parent_keeps := false; pool_catches_base := caught;
     worker_tracks_served := true; accept_survives_oserror := true; accept_rechecks_closed := true;
     accept_survives_spawn_failure := true |}.
Definition kill_history : list event :=
  [EConnect 1 AuthOk; EConnect 2 AuthOk; EConnect 3 AuthOk; EAccept; EAccept; EAccept;
   ESend 1 kill_frame; EPoll 1 false; ETake 0; EServe 0; ESend 2 kill_frame; EPoll 2 false; ETake 1; EServe 1;
   ESend 3 good_frame; EPoll 3 false].

