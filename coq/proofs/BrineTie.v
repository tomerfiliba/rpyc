(* Tie between the generated facts of rpyc/core/brine.py (gen/Gen_brine.v, regenerated on every run)
   and the constants the model and its proofs use.  Every lemma is by computation. *)
From V Require Import lib.Base model.Brine gen.Gen_brine.
From Coq Require Import String.
Open Scope N_scope.

Lemma tie_tags : Gen_brine.all_tags =
  [("TAG_NONE", to_N Brine.TAG_NONE); ("TAG_EMPTY_STR", to_N Brine.TAG_EMPTY_STR); ("TAG_EMPTY_TUPLE", to_N Brine.TAG_EMPTY_TUPLE);
   ("TAG_TRUE", to_N Brine.TAG_TRUE); ("TAG_FALSE", to_N Brine.TAG_FALSE); ("TAG_NOT_IMPLEMENTED", to_N Brine.TAG_NOT_IMPLEMENTED);
   ("TAG_ELLIPSIS", to_N Brine.TAG_ELLIPSIS); ("TAG_UNICODE", to_N Brine.TAG_UNICODE);
   ("TAG_STR1", to_N Brine.TAG_STR1); ("TAG_STR2", to_N Brine.TAG_STR2); ("TAG_STR3", to_N Brine.TAG_STR3); ("TAG_STR4", to_N Brine.TAG_STR4);
   ("TAG_STR_L1", to_N Brine.TAG_STR_L1); ("TAG_STR_L4", to_N Brine.TAG_STR_L4);
   ("TAG_TUP1", to_N Brine.TAG_TUP1); ("TAG_TUP2", to_N Brine.TAG_TUP2); ("TAG_TUP3", to_N Brine.TAG_TUP3); ("TAG_TUP4", to_N Brine.TAG_TUP4);
   ("TAG_TUP_L1", to_N Brine.TAG_TUP_L1); ("TAG_TUP_L4", to_N Brine.TAG_TUP_L4);
   ("TAG_INT_L1", to_N Brine.TAG_INT_L1); ("TAG_INT_L4", to_N Brine.TAG_INT_L4);
   ("TAG_FLOAT", to_N Brine.TAG_FLOAT); ("TAG_SLICE", to_N Brine.TAG_SLICE); ("TAG_FSET", to_N Brine.TAG_FSET);
   ("TAG_COMPLEX", to_N Brine.TAG_COMPLEX)]%string.
Proof. reflexivity. Qed.

Lemma tie_imm : Gen_brine.imm_lo = Brine.IMM_LO /\ Gen_brine.imm_hi = Brine.IMM_HI /\ Gen_brine.imm_off = Brine.IMM_OFF.
Proof. repeat split. Qed.

Lemma tie_ladders : Gen_brine.bytes_ladder = Brine.str_ladder /\ Gen_brine.tuple_ladder = Brine.tup_ladder
  /\ Gen_brine.int_ladder = Brine.int_ladder.
Proof. repeat split. Qed.

(* the ladders' tag numbers are the model's tag bytes *)
Lemma tie_ladder_tags :
  map (fun e => b_of (snd (fst e))) Brine.str_ladder =
    [Brine.TAG_EMPTY_STR; Brine.TAG_STR1; Brine.TAG_STR2; Brine.TAG_STR3; Brine.TAG_STR4; Brine.TAG_STR_L1; Brine.TAG_STR_L4] /\
  map (fun e => b_of (snd (fst e))) Brine.tup_ladder =
    [Brine.TAG_EMPTY_TUPLE; Brine.TAG_TUP1; Brine.TAG_TUP2; Brine.TAG_TUP3; Brine.TAG_TUP4; Brine.TAG_TUP_L1; Brine.TAG_TUP_L4] /\
  map (fun e => b_of (snd (fst e))) Brine.int_ladder = [Brine.TAG_INT_L1; Brine.TAG_INT_L4].
Proof. repeat split. Qed.

Lemma tie_structs : Gen_brine.struct_formats = [("I1", "!B"); ("I4", "!L"); ("F8", "!d"); ("C16", "!dd")]%string.
Proof. reflexivity. Qed.

(* exact-type registry: the twelve value kinds of [pyval] other than POther, no more *)
Lemma tie_dump_types : Gen_brine.dump_types =
  ["NoneType"; "NotImplementedType"; "ellipsis"; "bool"; "slice"; "frozenset"; "int"; "float"; "complex"; "bytes"; "str"; "tuple"]%string.
Proof. reflexivity. Qed.
Lemma tie_simple_types : Gen_brine.simple_types =
  ["NoneType"; "int"; "bool"; "float"; "bytes"; "str"; "complex"; "NotImplementedType"; "ellipsis"]%string.
Proof. reflexivity. Qed.
Lemma tie_load_tags : Gen_brine.load_tags =
  ["TAG_NONE"; "TAG_NOT_IMPLEMENTED"; "TAG_ELLIPSIS"; "TAG_TRUE"; "TAG_FALSE"; "TAG_EMPTY_TUPLE"; "TAG_EMPTY_STR"; "TAG_FLOAT"; "TAG_COMPLEX";
   "TAG_STR1"; "TAG_STR2"; "TAG_STR3"; "TAG_STR4"; "TAG_STR_L1"; "TAG_STR_L4"; "TAG_UNICODE";
   "TAG_TUP1"; "TAG_TUP2"; "TAG_TUP3"; "TAG_TUP4"; "TAG_TUP_L1"; "TAG_TUP_L4"; "TAG_SLICE"; "TAG_FSET"; "TAG_INT_L1"; "TAG_INT_L4"]%string.
Proof. reflexivity. Qed.

(* encoder and decoder use the same utf-8 error mode *)
Lemma tie_utf8_mode : Gen_brine.str_encode_surrogatepass = Gen_brine.str_decode_surrogatepass.
Proof. reflexivity. Qed.

(* the model parameters of the current tree *)
Definition Pgen (maxdigits : N) : bparams :=
  {| sp := Gen_brine.str_encode_surrogatepass; maxdigits := maxdigits |}.
