(* C13, "never strands a message", for EVERY reachable state: no state is a trap. Any thread with a request, inside
   wait()/serve(), has a continuation - thread steps, timeouts of blocked threads, the peer's answer if not yet sent - after
   which it has left wait(): Returned (reply processed in time) or TimedOut (expiry passed). Whoever holds the
   receive lock and wherever the reply is (not sent, in the stream behind other frames, in another thread's hand, dispatched), it
   can still be read and dispatched. Possibility, not fairness: c13_completion_refuted_without_deadline refutes the guarantee. *)
From V Require Import lib.Base model.Serve proofs.ServeP.

Fixpoint runl (s : st) (evs : list (label * nat)) : option st :=
  match evs with [] => Some s | (l, i) :: r => match step l i s with Some s' => runl s' r | None => None end end.

(* a continuation's labels: thread steps, timeouts, the peer's answer - never an expiry *)
Definition quiet (l : label) : Prop := l = LStep \/ l = LTimeout \/ exists q, l = LAnswer q.

Definition finished (p : pc) : Prop := p = Returned \/ p = TimedOut.
Definition settled (s : st) (q : nat) : Prop := ready s q = true \/ expd s q = true.

Lemma runl_app s evs1 s1 evs2 : runl s evs1 = Some s1 -> runl s (evs1 ++ evs2) = runl s1 evs2.
Proof.
  revert s. induction evs1 as [|[l i] r IH]; intros s H; cbn in *; [now inversion H|].
  destruct (step l i s); [auto|discriminate].
Qed.

Lemma runl_ind (P : st -> Prop) (L : label -> Prop) : (forall s l i s', L l -> step l i s = Some s' -> P s -> P s') ->
  forall evs s s', (forall e, In e evs -> L (fst e)) -> runl s evs = Some s' -> P s -> P s'.
Proof.
  intros Hstep. induction evs as [|[l i] r IH]; intros s s' HL H; cbn in H; [now injection H as <-|].
  destruct (step l i s) as [s1|] eqn:E; [|discriminate]. intros Hs.
  apply (IH s1 s'); [intros e He; apply HL; now right|exact H|]. apply (Hstep s l i s1); [apply (HL (l, i)); now left|exact E|exact Hs].
Qed.

Lemma runl_reach s0 evs s1 s : reach s0 s1 -> runl s1 evs = Some s -> reach s0 s.
Proof.
  intros R H. apply (runl_ind (reach s0) (fun _ => True)) with (evs := evs) (s := s1); auto.
  intros s2 l i s3 _ E R2. exact (rS s0 s2 l i s3 R2 E).
Qed.
(* a witness run is checked by evaluating what is asked of its end, not by normalising it *)
Definition run_end (s : st) (evs : list (label * nat)) : st := match runl s evs with Some s' => s' | None => s end.
Lemma runl_end s evs : (if runl s evs then true else false) = true -> runl s evs = Some (run_end s evs).
Proof. unfold run_end. destruct (runl s evs); [reflexivity|discriminate]. Qed.
Lemma runl_inv evs s s' : InvA s -> InvB s -> InvD s -> runl s evs = Some s' -> InvA s' /\ InvB s' /\ InvD s'.
Proof.
  intros IA IB ID H. apply (runl_ind (fun s => InvA s /\ InvB s /\ InvD s) (fun _ => True)) with (evs := evs) (s := s); auto.
  intros s1 l i s2 _ E (A & B & D). split; [|split]; [eapply invA_step|eapply invB_step|eapply invD_step]; eauto.
Qed.

Lemma step_myseq_kept' s l i s' w : quiet l -> step l i s = Some s' ->
  myseq (thrs s' w) = myseq (thrs s w).
Proof.
  intros Hl H. destruct (step_myseq s l i s' w H) as [E|(-> & _)]; [exact E|]. destruct Hl as [X|[X|[q X]]]; discriminate.
Qed.

Definition inside (p : pc) : Prop := in_loop p = true \/ finished p.

Lemma step_inside_kept s l i s' w : step l i s = Some s' -> inside (tpc (thrs s w)) -> inside (tpc (thrs s' w)).
Proof.
  intros H Hin. destruct (in_loop (tpc (thrs s' w))) eqn:El; [now left|]. right.
  destruct (step_leaves s l i s' w H El) as [E|(_ & q & _ & Hq)].
  - rewrite E. destruct Hin as [X|X]; [congruence|exact X].
  - destruct (ready s q); [left; exact Hq|right; apply Hq].
Qed.

Lemma step_settled_kept s l i s' q : step l i s = Some s' -> settled s q -> settled s' q.
Proof. intros H [Hr|He]; [left; eapply step_ready_mono; eauto|right; eapply step_expd_mono; eauto]. Qed.

Lemma quiet_step_expd s l i s' : quiet l -> step l i s = Some s' -> expd s' = expd s.
Proof. intros Hl H. destruct (step_expd s l i s' H) as [E|(q & -> & _)]; [exact E|]. destruct Hl as [X|[X|[q0 X]]]; discriminate. Qed.
Lemma quiet_run_expd evs s s' : (forall e, In e evs -> quiet (fst e)) -> runl s evs = Some s' -> expd s' = expd s.
Proof.
  intros Hq H. apply (runl_ind (fun s1 => expd s1 = expd s) quiet) with (evs := evs) (s := s); auto.
  intros s1 l i s2 Hl E <-. exact (quiet_step_expd s1 l i s2 Hl E).
Qed.
Lemma quiet_run_myseq evs s s' w : (forall e, In e evs -> quiet (fst e)) -> runl s evs = Some s' ->
  myseq (thrs s' w) = myseq (thrs s w).
Proof.
  intros Hq H. apply (runl_ind (fun s1 => myseq (thrs s1 w) = myseq (thrs s w)) quiet) with (evs := evs) (s := s); auto.
  intros s1 l i s2 Hl E <-. exact (step_myseq_kept' s1 l i s2 w Hl E).
Qed.

(* A settled waiter gets out alone (ServeL's rank argument; TimedOut a second exit). *)
Definition rank (p : pc) : nat :=
  match p with
  | Returned | TimedOut => 0 | LoopTest => 1 | Asleep => 2 | S5 => 2 | S4 => 3 | S3 => 4 | S2 => 5 | S1 => 6 | Idle => 7
  end.

(* a settled waiter's test no longer sends it round the loop *)
Lemma settled_step_descends s w q l s' : myseq (thrs s w) = Some q -> settled s q -> step l w s = Some s' -> l = LStep \/ l = LTimeout ->
  rank (tpc (thrs s' w)) < rank (tpc (thrs s w)).
Proof.
  intros Hm Hs H Hl.
  destruct (step_Step _ _ _ _ H) as [l' p0 p f hl E Hmv|E _|q0 rest E _|q0 E _|q0 _|q0]; try (destruct Hl; discriminate);
    cbn [thrs moved]; rewrite upd_same, E; cbn [tpc set_pc rank]; try lia.
  destruct Hmv as [|q0 _ _|q0 _ _ _|Hn| | | | | |]; cbn [rank]; try lia.
  - destruct (Hn q Hm). destruct Hs; congruence.
  - destruct (hand (thrs s w)); cbn [rank]; lia.
Qed.

Lemma settled_descends s w q : InvB s -> myseq (thrs s w) = Some q -> settled s q -> in_loop (tpc (thrs s w)) = true ->
  exists l s', (l = LStep \/ l = LTimeout) /\ step l w s = Some s' /\ rank (tpc (thrs s' w)) < rank (tpc (thrs s w)).
Proof.
  intros IB Hm Hs Hl.
  destruct (can_move s w IB Hl) as [[s' H]|(_ & _ & s' & H)]; [exists LStep|exists LTimeout]; exists s';
    (split; [auto|]); (split; [exact H|]); eapply settled_step_descends; eauto.
Qed.

Lemma settled_finishes : forall n s w q, InvA s -> InvB s -> myseq (thrs s w) = Some q -> settled s q ->
  inside (tpc (thrs s w)) -> rank (tpc (thrs s w)) <= n ->
  exists evs s', runl s evs = Some s' /\ finished (tpc (thrs s' w)) /\ (forall e, In e evs -> snd e = w /\ quiet (fst e)).
Proof.
  induction n as [|n IH]; intros s w q IA IB Hm Hs [Hl|Hf] Hk;
    try (exists [], s; split; [reflexivity|split; [exact Hf|intros e []]]).
  - destruct (tpc (thrs s w)); cbn in Hk; try lia; discriminate Hl.
  - destruct (settled_descends s w q IB Hm Hs Hl) as (l & s1 & Hlab & Hst & Hlt).
    assert (Hlab' : quiet l) by (unfold quiet; tauto).
    destruct (IH s1 w q (invA_step _ _ _ _ IA Hst) (invB_step _ _ _ _ IB Hst)) as (evs & s2 & Hr & Hfin & Hown).
    + rewrite (step_myseq_kept' s l w s1 w Hlab' Hst). exact Hm.
    + eapply step_settled_kept; eauto.
    + eapply step_inside_kept; eauto. left; exact Hl.
    + lia.
    + exists ((l, w) :: evs), s2. split; [cbn; rewrite Hst; exact Hr|]. split; [exact Hfin|].
      intros e [<-|He]; [split; [reflexivity|exact Hlab']|auto].
Qed.

(* An unsettled request can be brought a step nearer to its dispatch. *)
(* M codes, lexicographically: where the reply is (not sent > in the stream > in a hand > dispatched), the stream's length, and
   [cpart]: 0 if the lock holder polls, 9 if it has yet to release, [rankw] of the waiter's place (<= 5) if the lock is free.
   cpart <= 9 < 10 per frame; a carried reply <= 3 < 100; an answer's frame leaves 100 + 10 + 9 < 120. *)
Definition rank_carry (p : pc) : nat := match p with S3 => 3 | S4 => 2 | S5 => 1 | _ => 0 end.
Definition rankw (p : pc) : nat := match p with S1 => 1 | LoopTest => 2 | Asleep => 3 | S5 => 3 | S4 => 4 | _ => 5 end.
Definition cpart (s : st) (w : nat) : nat :=
  match holder s with
  | Some h => match tpc (thrs s h) with S2 => 0 | _ => 9 end
  | None => rankw (tpc (thrs s w))
  end.
Definition M (s : st) (w q : nat) : nat :=
  match ph s q with
  | POut => 120 + 10 * length (inbox s)
  | PIn => 100 + 10 * length (inbox s) + cpart s w
  | PHand h => rank_carry (tpc (thrs s h))
  | PDone | PNone => 0
  end.

Lemma cpart_le s w : cpart s w <= 9.
Proof. unfold cpart. destruct (holder s) as [h|]; [destruct (tpc (thrs s h)); lia|destruct (tpc (thrs s w)); cbn; lia]. Qed.
Lemma rankw_le p : rankw p <= 5.
Proof. destruct p; cbn; lia. Qed.

Lemma cpart_free s w : holder s = None -> cpart s w = rankw (tpc (thrs s w)).
Proof. intros E. unfold cpart. now rewrite E. Qed.
Lemma cpart_polling s w h : holder s = Some h -> tpc (thrs s h) = S2 -> cpart s w = 0.
Proof. intros E Ep. unfold cpart. now rewrite E, Ep. Qed.

(* who takes the step that brings q nearer *)
Inductive mover (s : st) (w q : nat) : label -> nat -> Prop :=
| m_peer q0 i : mover s w q (LAnswer q0) i
| m_self l : mover s w q l w
| m_holder l h : holder s = Some h -> mover s w q l h
| m_carrier l h : ph s q = PHand h -> mover s w q l h.

Lemma M_answered s s' w q q0 : ph s q = POut -> ph s' q = PIn -> inbox s' = inbox s ++ [q0] -> M s' w q < M s w q.
Proof. intros E E' Ei. unfold M. rewrite E, E', Ei, app_length. pose proof (cpart_le s' w). cbn [length]. lia. Qed.
Lemma M_read s s' w q q0 : ph s q = PIn -> inbox s = q0 :: inbox s' -> ph s' q = PIn \/ (exists h, ph s' q = PHand h) -> M s' w q < M s w q.
Proof.
  intros E Ei [E'|[h E']]; unfold M; rewrite E, E', Ei; cbn [length]; [pose proof (cpart_le s' w); lia|].
  destruct (tpc (thrs s' h)); cbn [rank_carry]; lia.
Qed.
Lemma M_in s s' w q : ph s q = PIn -> ph s' q = PIn -> inbox s' = inbox s -> cpart s' w < cpart s w -> M s' w q < M s w q.
Proof. intros E E' Ei Hc. unfold M. rewrite E, E', Ei. lia. Qed.
Lemma M_carried s s' w q h : ph s q = PHand h -> ph s' q = PHand h ->
  rank_carry (tpc (thrs s' h)) < rank_carry (tpc (thrs s h)) -> M s' w q < M s w q.
Proof. intros E E'. unfold M. now rewrite E, E'. Qed.
Lemma M_own s s' w q : ph s q = PIn -> ph s' q = PIn -> inbox s' = inbox s -> holder s = None -> holder s' = None ->
  rankw (tpc (thrs s' w)) < rankw (tpc (thrs s w)) -> M s' w q < M s w q.
Proof. intros E E' Ei Eh Eh' Hlt. apply M_in; auto. now rewrite !cpart_free. Qed.

(* thread i, a mover by mv, takes step l; the guards rewritten, [step] computes the successor *)
Ltac take l i mv guards :=
  exists l, i; eexists; split; [exact mv|]; split; [unfold quiet; eauto|]; split; [unfold step; cbv zeta; guards; reflexivity|].

Lemma nearer s w q : InvA s -> InvB s -> myseq (thrs s w) = Some q -> in_loop (tpc (thrs s w)) = true ->
  ready s q = false -> expd s q = false ->
  exists l i s', mover s w q l i /\ quiet l /\ step l i s = Some s' /\ (settled s' q \/ M s' w q < M s w q).
Proof.
  intros IA IB Hm Hl Hr He.
  destruct (ph s q) as [| | |h|] eqn:Ep.
  - (* PNone: impossible, the number has been drawn *)
    exfalso. apply (B_fresh s IB q) in Ep. apply (proj1 (B_seq s IB)) in Hm. lia.
  - (* POut: the peer answers *)
    take (LAnswer q) 0 (m_peer s w q q 0) ltac:(rewrite Ep). right. apply (M_answered s _ w q q); [exact Ep|apply upd_same|reflexivity].
  - (* PIn: somebody has to read it *)
    destruct (holder s) as [h|] eqn:Eh.
    + assert (Hh : holds_lock (tpc (thrs s h)) = true) by (apply (A_hold s IA); exact Eh).
      destruct (tpc (thrs s h)) eqn:Eph; try discriminate Hh.
      * (* the holder polls: it reads the oldest frame, q or not *)
        destruct (inbox s) as [|q0 rest] eqn:Ei; [apply (B_inbox s IB) in Ep; now rewrite Ei in Ep|].
        take LStep h (m_holder s w q LStep h Eh) ltac:(rewrite Eph, Ei). right. apply (M_read s _ w q q0); [exact Ep|exact Ei|]. cbn [ph].
        destruct (Nat.eq_dec q q0) as [->|Hne]; [right; exists h; apply upd_same|left; now rewrite upd_other].
      * (* the holder releases: any place of the waiter weighs less than a taken lock *)
        take LStep h (m_holder s w q LStep h Eh) ltac:(rewrite Eph). right. apply M_in; auto.
        unfold cpart. cbn [holder]. rewrite Eh, Eph. apply Nat.le_lt_trans with 5; [apply rankw_le|lia].
    + (* the lock is free: the waiter goes for it *)
      assert (Hnl : holds_lock (tpc (thrs s w)) = false).
      { destruct (holds_lock (tpc (thrs s w))) eqn:X; [|reflexivity]. apply (A_hold s IA) in X. congruence. }
      destruct (tpc (thrs s w)) eqn:E; try discriminate Hl; try discriminate Hnl.
      * (* LoopTest *)
        take LStep w (m_self s w q LStep) ltac:(rewrite E, Hm, Hr, He). right. apply M_own; auto.
        cbn [thrs with_thr]. rewrite upd_same, E. cbn. lia.
      * (* S1: takes the lock, polls *)
        take LStep w (m_self s w q LStep) ltac:(rewrite E, Eh). right. apply M_in; auto.
        rewrite (cpart_free s w Eh), E. erewrite cpart_polling; [cbn; lia|reflexivity|cbn [thrs]; now rewrite upd_same].
      * (* Asleep *)
        take LTimeout w (m_self s w q LTimeout) ltac:(rewrite E). right. apply M_own; auto.
        cbn [thrs with_thr]. rewrite upd_same, E. cbn. lia.
      * (* S4 *)
        take LStep w (m_self s w q LStep) ltac:(rewrite E). right. apply M_own; auto.
        cbn [thrs]. rewrite upd_same, E. destruct (hand (thrs s w)); cbn; lia.
      * (* S5: dispatches its frame, which is not q *)
        pose proof (B_s5 s IB w E) as H5. destruct (hand (thrs s w)) as [q1|] eqn:Ehd; [|congruence].
        assert (Hne : q <> q1) by (intros ->; apply (B_hand1 s IB) in Ehd; destruct Ehd; congruence).
        take LStep w (m_self s w q LStep) ltac:(rewrite E, Ehd). right. apply M_own; auto; [cbn [ph]; now rewrite upd_other|].
        cbn [thrs]. rewrite upd_same, E. cbn. lia.
  - (* PHand h: the thread that carries it goes on *)
    pose proof (B_hand2 s IB q h Ep) as Hh. destruct (B_hand1 s IB h q Hh) as [_ Hc].
    destruct (tpc (thrs s h)) eqn:Eph; try discriminate Hc.
    + take LStep h (m_carrier s w q LStep h Ep) ltac:(rewrite Eph). right. apply (M_carried s _ w q h Ep); [exact Ep|].
      cbn [thrs]. rewrite upd_same, Eph. cbn. lia.
    + take LStep h (m_carrier s w q LStep h Ep) ltac:(rewrite Eph). right. apply (M_carried s _ w q h Ep); [exact Ep|].
      cbn [thrs]. rewrite upd_same, Eph, Hh. cbn. lia.
    + (* S5: dispatch; callback still registered, expiry not passed: the cell becomes ready *)
      take LStep h (m_carrier s w q LStep h Ep) ltac:(rewrite Eph, Hh). left. left.
      cbn [ready]. destruct (pending s q) as [t|] eqn:Epd; [rewrite He; apply upd_same|].
      apply (B_pend s IB q) in Epd. destruct Epd; congruence.
  - (* PDone: then it is settled already *)
    exfalso. destruct (done_settled s q IB Ep); congruence.
Qed.

(* The induction on M, for any notion [Run] of continuation that admits the waiter's own runs and extends in front by a mover's
   step: plain quiet runs here (can_always_finish), [ServeI.runs_by] in ServeI.can_always_finish_by. *)
Section Finish.
Variable w : nat.
Variable Run : st -> list (label * nat) -> st -> Prop.
Hypothesis Run_own : forall s evs s', runl s evs = Some s' -> (forall e, In e evs -> snd e = w /\ quiet (fst e)) -> Run s evs s'.
Hypothesis Run_cons : forall s q l i s1 evs s', InvA s -> InvB s -> mover s w q l i -> quiet l -> step l i s = Some s1 ->
  Run s1 evs s' -> Run s ((l, i) :: evs) s'.

Lemma settled_runs s q : InvA s -> InvB s -> myseq (thrs s w) = Some q -> settled s q -> inside (tpc (thrs s w)) ->
  exists evs s', Run s evs s' /\ finished (tpc (thrs s' w)).
Proof.
  intros IA IB Hm Hs Hin. destruct (settled_finishes _ s w q IA IB Hm Hs Hin (le_n _)) as (evs & s' & H1 & H2 & H3).
  exists evs, s'. split; [now apply Run_own|exact H2].
Qed.

Theorem finish_run : forall n s q, InvA s -> InvB s -> myseq (thrs s w) = Some q -> inside (tpc (thrs s w)) -> M s w q < n ->
  exists evs s', Run s evs s' /\ finished (tpc (thrs s' w)).
Proof.
  induction n as [|n IH]; intros s q IA IB Hm Hin HM; [lia|].
  destruct (ready s q) eqn:Er; [apply (settled_runs s q); auto; now left|].
  destruct (expd s q) eqn:Ee; [apply (settled_runs s q); auto; now right|].
  destruct Hin as [Hl|Hf]; [|exists [], s; split; [apply Run_own; [reflexivity|intros e []]|exact Hf]].
  destruct (nearer s w q IA IB Hm Hl Er Ee) as (l & i & s1 & Hmv & Hlab & Hst & Hprog).
  pose proof (invA_step _ _ _ _ IA Hst) as IA1. pose proof (invB_step _ _ _ _ IB Hst) as IB1.
  assert (Hm1 : myseq (thrs s1 w) = Some q) by (rewrite (step_myseq_kept' s l i s1 w Hlab Hst); exact Hm).
  assert (Hin1 : inside (tpc (thrs s1 w))) by (apply (step_inside_kept s l i s1 w Hst); now left).
  assert (X : exists evs s', Run s1 evs s' /\ finished (tpc (thrs s' w))).
  { destruct Hprog as [Hs|Hlt]; [now apply (settled_runs s1 q)|apply (IH s1 q); auto; lia]. }
  destruct X as (evs & s' & H1 & H2). exists ((l, i) :: evs), s'. split; [|exact H2].
  now apply (Run_cons s q l i s1 evs s').
Qed.
End Finish.

Theorem can_always_finish : forall n s w q, InvA s -> InvB s -> myseq (thrs s w) = Some q -> inside (tpc (thrs s w)) ->
  M s w q < n -> exists evs s', runl s evs = Some s' /\ finished (tpc (thrs s' w)) /\ (forall e, In e evs -> quiet (fst e)).
Proof.
  intros n s w q IA IB Hm Hin HM.
  destruct (finish_run w (fun s evs s' => runl s evs = Some s' /\ forall e, In e evs -> quiet (fst e))) with (n := n) (s := s) (q := q)
    as (evs & s' & [H1 H2] & H3); auto.
  - intros s0 evs s' H Hown. split; [exact H|]. intros e He. now apply Hown.
  - intros s0 q0 l i s1 evs s' _ _ _ Hl Hst [H1 H2]. split; [cbn; now rewrite Hst|]. intros e [<-|He]; [exact Hl|now apply H2].
  - exists evs, s'. auto.
Qed.

(* given up after a quiet continuation: the expiry had passed at its start *)
Lemma quiet_run_exit s evs s' w q : InvA s -> InvB s -> InvD s -> myseq (thrs s w) = Some q ->
  runl s evs = Some s' -> (forall e, In e evs -> quiet (fst e)) -> finished (tpc (thrs s' w)) ->
  tpc (thrs s' w) = Returned \/ (tpc (thrs s' w) = TimedOut /\ expd s q = true).
Proof.
  intros IA IB ID Hm Hr Hq [Hf|Hf]; [now left|right; split; [exact Hf|]].
  destruct (runl_inv evs s s' IA IB ID Hr) as (_ & _ & ID').
  destruct (ID' w Hf) as (q' & Hm' & He' & _).
  rewrite (quiet_run_myseq evs s s' w Hq Hr), Hm in Hm'. injection Hm' as <-.
  now rewrite (quiet_run_expd evs s s' Hq Hr) in He'.
Qed.

Theorem no_trap s w q : InvA s -> InvB s -> InvD s -> myseq (thrs s w) = Some q -> in_loop (tpc (thrs s w)) = true ->
  exists evs s', runl s evs = Some s' /\ (forall e, In e evs -> quiet (fst e))
    /\ (tpc (thrs s' w) = Returned \/ (tpc (thrs s' w) = TimedOut /\ expd s q = true)).
Proof.
  intros IA IB ID Hm Hl.
  destruct (can_always_finish (S (M s w q)) s w q IA IB Hm (or_introl Hl) (Nat.lt_succ_diag_r _)) as (evs & s' & Hr & Hf & Hq).
  exists evs, s'. split; [exact Hr|]. split; [exact Hq|]. now apply (quiet_run_exit s evs s' w q).
Qed.
