(* Every encoding a conforming peer may emit is accepted with the same meaning - at EVERY node, not just the outermost:
   counts may be in the dedicated short tags, the one-byte form or the four-byte form wherever the format admits them,
   integers may be immediates or decimal text in either count form, items of tuples / frozensets / slices and the bytes
   under a text value may again be in any admissible form. [admits] is that set of encodings; [admits_accepted] says the
   decoder reads each of them back as the value, leaving the rest of the stream untouched. *)
From V Require Import lib.Base lib.Decimal lib.Utf8 model.Brine proofs.BrineP.
Open Scope N_scope.

(* the headers the format admits for a tuple of n items *)
Inductive tup_header (n : N) : list byte -> Prop :=
| TH_short h : n < LIM -> hdr_tup n = Ok h -> tup_header n h                      (* what the shortest-form encoder picks *)
| TH_L1 : n < 256 -> tup_header n [x14; b_of n]                              (* also for the empty tuple: 14 00 *)
| TH_L4 : n < 4294967296 -> tup_header n (x15 :: be4 n).

Section A.
Variable P : bparams.

Inductive admits : pyval -> list byte -> Prop :=
| A_canon v bs : wf P v = true -> dumpable v = true -> text_ok P v = true -> dump P v = Ok bs -> admits v bs
| A_bytes_L1 b : nlen b < 256 -> admits (PBytes b) (x0e :: b_of (nlen b) :: b)
| A_bytes_L4 b : nlen b < 4294967296 -> admits (PBytes b) (x0f :: be4 (nlen b) ++ b)
| A_int_L1 z t : render (maxdigits P) z = Ok t -> nlen t < 256 -> admits (PInt z) (x16 :: b_of (nlen t) :: t)
| A_int_L4 z t : render (maxdigits P) z = Ok t -> nlen t < 4294967296 -> admits (PInt z) (x17 :: be4 (nlen t) ++ t)
| A_str cps e enc : utf8_encode (sp P) cps = Ok e -> admits (PBytes e) enc -> admits (PStr cps) (x08 :: enc)
| A_tuple l bss h : tup_header (nlen l) h -> admits_list l bss -> admits (PTuple l) (h ++ concat bss)
| A_fset l t : admits (PTuple l) t -> admits (PFset l) (x1a :: t)
| A_slice a b c t : admits (PTuple [a; b; c]) t -> admits (PSlice a b c) (x19 :: t)
with admits_list : list pyval -> list (list byte) -> Prop :=
| AL_nil : admits_list [] []
| AL_cons y ys b bs : admits y b -> admits_list ys bs -> admits_list (y :: ys) (b :: bs).

Scheme admits_mut := Induction for admits Sort Prop
  with admits_list_mut := Induction for admits_list Sort Prop.

(* accepted at fuel f: non-empty, and read back exactly, whatever follows; BrineP states this as [reads (load_f P f) v bs] *)
Definition acc (f : nat) (v : pyval) (bs : list byte) : Prop := bs <> [] /\ forall rest, load_f P f (bs ++ rest) = Ok (v, rest).

Lemma tup_header_count_hdr n h : tup_header n h -> count_hdr KTup n h.
Proof. intros [h' Hn E|H|H]; [now apply H_short|now apply H_L1|now apply H_L4]. Qed.

Lemma acc_mono f g v bs : (f <= g)%nat -> acc f v bs -> (forall rest, load_f P f (bs ++ rest) = Ok (v, rest) -> load_f P g (bs ++ rest) = Ok (v, rest)) -> acc g v bs.
Proof. intros _ [N H] M. split; [exact N|]. intros rest. apply M, H. Qed.

Theorem admits_acc : forall v bs, admits v bs -> forall f, (depth v <= f)%nat -> reads (load_f P f) v bs.
Proof.
  apply (admits_mut (fun v bs _ => forall f, (depth v <= f)%nat -> reads (load_f P f) v bs)
                    (fun l bss _ => forall f, (fold_right (fun y m => Nat.max (depth y) m) O l <= f)%nat -> Forall2 (reads (load_f P f)) l bss));
    cbn [depth fold_right].
  - intros v bs Hw Hd Ht E f Hf. exact (rt_at_dump P f v bs (roundtrip_rt P v Hw Hd Ht f Hf) E).
  - intros b H [|f] Hf; [lia|]. exact (reads_counted P _ KStr _ _ b _ (H_L1 KStr _ H) (bytes_of_app b)).
  - intros b H [|f] Hf; [lia|]. exact (reads_counted P _ KStr _ _ b _ (H_L4 KStr _ H) (bytes_of_app b)).
  - intros z t Hr H [|f] Hf; [lia|]. exact (reads_counted P _ KInt _ _ t _ (H_L1 KInt _ H) (int_of_app P z t Hr)).
  - intros z t Hr H [|f] Hf; [lia|]. exact (reads_counted P _ KInt _ _ t _ (H_L4 KInt _ H) (int_of_app P z t Hr)).
  - intros cps e enc Ee _ IH [|f] Hf; [lia|]. apply (reads_text P _ cps e enc Ee). apply IH. lia.
  - intros l bss h Hh _ IH [|f] Hf; [lia|]. apply (reads_counted P _ KTup (nlen l)); [now apply tup_header_count_hdr|].
    apply tup_of_app. apply IH. lia.
  - intros l t _ IH [|f] Hf; [lia|]. apply reads_fset. apply IH. cbn [depth]. lia.
  - intros a b c t _ IH [|f] Hf; [lia|]. apply reads_slice. apply IH. cbn [depth fold_right]. lia.
  - constructor.
  - intros y ys b bs _ IHy _ IHys f Hf. constructor; [apply IHy|apply IHys]; lia.
Qed.

(* nesting never exceeds the number of bytes, so the fuel brine.load starts with always suffices *)
Lemma admits_depth : forall v bs, admits v bs -> (depth v <= S (length bs))%nat.
Proof.
  apply (admits_mut (fun v bs _ => (depth v <= S (length bs))%nat)
                    (fun l bss _ => (fold_right (fun y m => Nat.max (depth y) m) O l <= S (length (concat bss)))%nat));
    cbn [depth fold_right concat length]; try lia.
  - intros v bs _ _ _ E. exact (depth_le P v bs E).
  - intros l bss h Hh _ IH. apply tup_header_count_hdr, count_hdr_ok in Hh as [Nh _].
    rewrite app_length. destruct h; [congruence|cbn [length]; lia].
  - intros y ys b bs _ IHy _ IHys. rewrite app_length. lia.
Qed.

Theorem admits_load v bs : admits v bs -> load P bs = Ok v.
Proof.
  intros H. unfold load. pose proof (proj2 (admits_acc v bs H (S (length bs)) (admits_depth v bs H)) []) as E.
  rewrite app_nil_r in E. now rewrite E.
Qed.

Theorem admits_accepted v bs : admits v bs -> forall rest, load_f P (S (depth v)) (bs ++ rest) = Ok (v, rest).
Proof. intros H rest. exact (proj2 (admits_acc v bs H (S (depth v)) ltac:(lia)) rest). Qed.
End A.
