(* model/Channel.v: a read returns what stands in front of it or fails; thence frames, cut frames, streams *)
From V Require Import lib.Base model.Ladder model.Channel.
Open Scope N_scope.

Lemma nfirst_nskip n (l : list byte) : nfirst n l ++ nskip n l = l.
Proof. apply firstn_skipn. Qed.
Lemma nfirst_app_le n (a b : list byte) : n <= nlen a -> nfirst n (a ++ b) = nfirst n a.
Proof.
  unfold nfirst, nlen. intros H. rewrite firstn_app.
  replace (N.to_nat n - length a)%nat with O by lia. cbn. apply app_nil_r.
Qed.
Lemma nfirst_app_ge n (a b : list byte) : nlen a <= n -> nfirst n (a ++ b) = a ++ nfirst (n - nlen a) b.
Proof. unfold nfirst, nlen. intros H. rewrite firstn_app, firstn_all2 by lia. do 2 f_equal. lia. Qed.
Lemma nskip_app_le n (a b : list byte) : n <= nlen a -> nskip n (a ++ b) = nskip n a ++ b.
Proof.
  unfold nskip, nlen. intros H. rewrite skipn_app.
  replace (N.to_nat n - length a)%nat with O by lia. reflexivity.
Qed.
Lemma nfirst_all n (a : list byte) : nlen a <= n -> nfirst n a = a.
Proof. unfold nfirst, nlen. intros H. apply firstn_all2. lia. Qed.
Lemma nskip_all n (a : list byte) : nlen a <= n -> nskip n a = [].
Proof. unfold nskip, nlen. intros H. apply skipn_all2. lia. Qed.
Lemma nlen_nfirst_le n (a : list byte) : nlen (nfirst n a) <= n.
Proof. unfold nfirst, nlen. rewrite firstn_length. lia. Qed.
Lemma nlen_nskip n (a : list byte) : nlen (nskip n a) = nlen a - n.
Proof. unfold nskip, nlen. rewrite skipn_length. lia. Qed.

Definition benign_w (evs : list wev) : Prop := Forall (fun e => e <> WErr) evs.

(* stream.write, any transport: a prefix of the data reaches the wire, all of it on success; no fault, success *)
Lemma stream_write_spec chunk : forall evs data wire ok w evs', stream_write chunk evs data wire = (ok, w, evs') ->
  exists sent rest, w = wire ++ sent /\ data = sent ++ rest /\ (ok = true -> rest = []) /\
                    (benign_w evs -> ok = true /\ benign_w evs').
Proof.
  induction evs as [|e evs IH]; intros data wire ok w evs' H;
    (destruct data as [|d0 data]; [injection H as <- <- <-; exists [], []; rewrite app_nil_r; auto|]).
  - injection H as <- <- <-. exists (d0 :: data), []. rewrite app_nil_r. auto.
  - destruct e as [k|]; cbn [stream_write] in H.
    + set (n := N.max 1 (N.min k (N.min chunk (nlen (d0 :: data))))) in *.
      destruct (IH _ _ _ _ _ H) as (sent & rest & -> & E & Hok & Hb).
      exists (nfirst n (d0 :: data) ++ sent), rest. rewrite <- !app_assoc, <- E, nfirst_nskip.
      repeat apply conj; auto. intros B. apply Hb. now apply Forall_inv_tail in B.
    + injection H as <- <- <-. exists [], (d0 :: data). rewrite app_nil_r.
      repeat apply conj; [reflexivity | reflexivity | discriminate | intros B; destruct (Forall_inv B eq_refl)].
Qed.

Definition benign_r (tol : bool) (evs : list revt) : Prop :=
  Forall (fun e => match e with RData _ => True | RTimeout | RWouldBlock => tol = true | _ => False end) evs.

Lemma benign_r_cons tol e evs : benign_r tol (e :: evs) <->
  match e with RData _ => True | RTimeout | RWouldBlock => tol = true | _ => False end /\ benign_r tol evs.
Proof. apply Forall_cons_iff. Qed.

(* one recv takes at least one byte, no more than asked for or there are *)
Lemma read_size k c req a : req <> 0 -> a <> 0 ->
  let n := N.max 1 (N.min k (N.min (N.min c req) a)) in 1 <= n /\ n <= req /\ n <= a.
Proof. lia. Qed.

(* a read of [req] bytes with exactly [bs] in front returns bs or fails, and fails only on a hard fault *)
Lemma stream_read_exact tol chunk : forall evs req bs rest acc, nlen bs = req ->
  match stream_read tol chunk evs req (bs ++ rest) acc with
  | (Some r, evs', av) => r = acc ++ bs /\ av = rest /\ (benign_r tol evs -> benign_r tol evs')
  | (None, _, _) => ~ benign_r tol evs
  end.
Proof.
  induction evs as [|e evs IH]; intros req bs rest acc Hl; cbn [stream_read];
    (destruct (N.eqb_spec req 0) as [E|E]; [rewrite (nlen_nil bs) by lia; cbn [app]; now rewrite app_nil_r|]).
  - destruct (N.ltb_spec (nlen (bs ++ rest)) req) as [H|H]; [rewrite nlen_app in H; lia|].
    now rewrite nfirst_app_le, nskip_app_le, nfirst_all, nskip_all, app_nil_l by lia.
  - pose proof (benign_r_cons tol e evs) as Bc. destruct e as [k| | | |]; try tauto.
    + assert (Ha : nlen (bs ++ rest) <> 0) by (rewrite nlen_app; lia).
      destruct (bs ++ rest) as [|x xs] eqn:Eav; [easy|]. rewrite <- Eav in *. clear x xs Eav.
      destruct (read_size k chunk req _ E Ha) as (H1 & H2 & _). set (n := N.max 1 _) in *. clearbody n. clear Ha.
      rewrite nfirst_app_le, nskip_app_le by lia.
      specialize (IH (req - n) (nskip n bs) rest (acc ++ nfirst n bs) ltac:(rewrite nlen_nskip; lia)).
      rewrite <- app_assoc, nfirst_nskip in IH. destruct (stream_read _ _ evs _ _ _) as [[[r|] evs'] av]; tauto.
    + destruct tol; [|intros B; now apply Bc in B]. specialize (IH req bs rest acc Hl).
      destruct (stream_read _ _ evs _ _ _) as [[[r|] evs'] av]; tauto.
    + destruct tol; [|intros B; now apply Bc in B]. specialize (IH req bs rest acc Hl).
      destruct (stream_read _ _ evs _ _ _) as [[[r|] evs'] av]; tauto.
Qed.

(* fewer bytes than requested, ever: the read fails *)
Lemma stream_read_short tol chunk : forall evs req avail acc, nlen avail < req ->
  exists evs' av, stream_read tol chunk evs req avail acc = (None, evs', av).
Proof.
  induction evs as [|e evs IH]; intros req avail acc Hl; cbn [stream_read];
    (destruct (N.eqb_spec req 0) as [E|E]; [lia|]).
  - destruct (N.ltb_spec (nlen avail) req); [eauto|lia].
  - destruct e as [k| | | |]; eauto.
    + destruct avail as [|x xs]; [eauto|].
      destruct (read_size k chunk req (nlen (x :: xs)) E) as (H1 & H2 & H3); [discriminate|].
      set (n := N.max 1 _) in *. clearbody n. apply IH. rewrite nlen_nskip. lia.
    + destruct tol; eauto.
    + destruct tol; eauto.
Qed.

Section Z.
Variable compress : list byte -> list byte.
Variable decompress : list byte -> result (list byte).
Hypothesis zlib_roundtrip : forall x, decompress (compress x) = Ok x.
Variable P : cparams.
Hypothesis Hhdr : hdr_size P = 5.
(* Not needed (reads and writes move at least one byte whatever the chunk size, N.max 1), but a hypothesis of the
   statements of props/C05.v. *)
Hypothesis Hchunk : hdr_size P + nlen (flusher P) <= chunk P.

Lemma do_writes_spec : forall ws evs wire ok w evs', do_writes P evs ws wire = (ok, w, evs') ->
  exists sent rest, w = wire ++ sent /\ concat ws = sent ++ rest /\ (ok = true -> rest = []) /\
                    (benign_w evs -> ok = true /\ benign_w evs').
Proof.
  induction ws as [|x ws IH]; intros evs wire ok w evs' H; cbn [do_writes concat] in *.
  - injection H as <- <- <-. exists [], []. rewrite app_nil_r. auto.
  - destruct (stream_write (chunk P) evs x wire) as [[ok1 w1] evs1] eqn:E1.
    destruct (stream_write_spec _ _ _ _ _ _ _ E1) as (s1 & r1 & -> & -> & Hok1 & Hb1). destruct ok1.
    + destruct (IH _ _ _ _ _ H) as (s2 & r2 & -> & -> & Hok2 & Hb2). rewrite (Hok1 eq_refl), app_nil_r.
      exists (s1 ++ s2), r2. rewrite <- !app_assoc. repeat apply conj; auto. intros B. now apply Hb2, Hb1.
    + injection H as <- <- <-. exists s1, (r1 ++ concat ws). rewrite <- app_assoc.
      repeat apply conj; [reflexivity | reflexivity | discriminate | intros B; now destruct (Hb1 B)].
Qed.

(* the frame is what the writes of Channel.send add up to *)
Lemma send_writes_frame cmp data :
  frame compress P cmp data = do ws <- send_writes compress P cmp data; Ok (concat ws).
Proof.
  unfold send_writes, frame. destruct (frame_body compress P cmp data) as [flag body].
  destruct (header (nlen body) flag) as [h| | |]; cbn [bind]; try reflexivity.
  destruct (hdr_size P + nlen body + nlen (flusher P) <=? chunk P); cbn [bind concat]; rewrite app_nil_r; [reflexivity|].
  now rewrite <- app_assoc, (app_assoc (nfirst _ body)), nfirst_nskip.
Qed.

(* Channel.send, any transport: a prefix of the frame reaches the wire, the whole frame on normal return; no fault,
   normal return *)
Theorem channel_send_spec cmp data evs f : frame compress P cmp data = Ok f ->
  exists ok w evs', channel_send compress P cmp evs data = Ok (ok, w, evs') /\
    (exists rest, f = w ++ rest /\ (ok = true -> rest = [])) /\ (benign_w evs -> ok = true /\ benign_w evs').
Proof.
  rewrite send_writes_frame. unfold channel_send.
  destruct (send_writes compress P cmp data) as [ws| | |]; try discriminate. cbn [bind]. intros [= <-].
  destruct (do_writes P evs ws []) as [[ok w] evs'] eqn:E. exists ok, w, evs'.
  destruct (do_writes_spec _ _ _ _ _ _ E) as (sent & rest & -> & -> & Hok & Hb). cbn [app]. eauto.
Qed.

(* no fault: exactly the frame is on the wire, however writes are split *)
Theorem send_complete cmp data evs f : benign_w evs -> frame compress P cmp data = Ok f ->
  exists evs', channel_send compress P cmp evs data = Ok (true, f, evs') /\ benign_w evs'.
Proof.
  intros Hb Hf. destruct (channel_send_spec cmp data evs f Hf) as (ok & w & evs' & E & (rest & -> & Hr) & B).
  destruct (B Hb) as [-> B']. rewrite (Hr eq_refl), app_nil_r in *. eauto.
Qed.

Definition frames (cmp : bool) (pkts : list (list byte)) : result (list (list byte)) :=
  fold_right (fun d acc => do f <- frame compress P cmp d; do r <- acc; Ok (f :: r)) (Ok []) pkts.

Lemma frame_shape cmp d f : frame compress P cmp d = Ok f ->
  exists flag body, frame_body compress P cmp d = (flag, body) /\ nlen body < 4294967296 /\
    f = (be4 (nlen body) ++ [if flag then x01 else x00]) ++ body ++ flusher P /\
    (if flag then decompress body else Ok body) = Ok d.
Proof.
  unfold frame. destruct (frame_body compress P cmp d) as [flag body] eqn:Eb. unfold header, pack_I4.
  destruct (N.ltb_spec (nlen body) 4294967296) as [Hl|Hl]; cbn [bind]; [|discriminate].
  intros [= <-]. exists flag, body. repeat split; auto.
  unfold frame_body in Eb. destruct (cmp && (threshold P <? nlen d)); injection Eb as <- <-; auto.
Qed.

Lemma strip_flusher (body fl : list byte) : firstn (length (body ++ fl) - length fl) (body ++ fl) = body.
Proof. rewrite app_length, Nat.add_sub, firstn_app, Nat.sub_diag, firstn_all. cbn [firstn]. apply app_nil_r. Qed.

(* bytes laid out as a frame are delivered exactly, or the read fails (EOFError, stream closed) *)
Lemma channel_recv_layout tol fl body payload evs rest : nlen body < 4294967296 ->
  (if Byte.eqb fl x00 then Ok body else decompress body) = Ok payload ->
  let wire := (be4 (nlen body) ++ [fl]) ++ body ++ flusher P in
  (exists evs', channel_recv decompress P tol evs (wire ++ rest) = (RcvOk payload, evs', rest) /\ (benign_r tol evs -> benign_r tol evs'))
  \/ (exists evs' av, channel_recv decompress P tol evs (wire ++ rest) = (RcvEOF, evs', av) /\ ~ benign_r tol evs).
Proof.
  intros Hl Hd wire. unfold channel_recv, wire. rewrite Hhdr, <- !app_assoc.
  pose proof (stream_read_exact tol (chunk P) evs 5 (be4 (nlen body) ++ [fl]) (body ++ flusher P ++ rest) [] eq_refl) as H1.
  rewrite <- app_assoc in H1.
  destruct (stream_read _ _ evs _ _ _) as [[[h|] evs1] av1]; [destruct H1 as (-> & -> & B1)|right; eauto].
  cbn [be4 app]. rewrite un4_be4 by exact Hl.
  pose proof (stream_read_exact tol (chunk P) evs1 (nlen body + nlen (flusher P)) (body ++ flusher P) rest []
                (nlen_app _ _)) as H2.
  rewrite <- app_assoc in H2.
  destruct (stream_read _ _ evs1 _ _ _) as [[[b|] evs2] av2];
    [destruct H2 as (-> & -> & B2)|right; exists evs2, av2; split; [reflexivity|intros Hb; exact (H2 (B1 Hb))]].
  left. cbn [app]. rewrite strip_flusher. exists evs2. split; [|auto]. destruct (Byte.eqb fl x00).
  - now injection Hd as ->.
  - now rewrite Hd.
Qed.

(* [Proof using]: through this lemma [Hchunk] reaches them *)
Lemma channel_recv_frame tol cmp d f evs rest : frame compress P cmp d = Ok f ->
  (exists evs', channel_recv decompress P tol evs (f ++ rest) = (RcvOk d, evs', rest) /\ (benign_r tol evs -> benign_r tol evs'))
  \/ (exists evs' av, channel_recv decompress P tol evs (f ++ rest) = (RcvEOF, evs', av) /\ ~ benign_r tol evs).
Proof using compress decompress zlib_roundtrip Hhdr Hchunk.
  intros Hf. destruct (frame_shape _ _ _ Hf) as (flag & body & Eb & Hl & -> & Hd).
  apply channel_recv_layout; [exact Hl|now destruct flag].
Qed.

(* a strict prefix of a frame (cut anywhere, even at 0) ends in EOFError *)
Lemma channel_recv_cut tol cmp d f evs k : frame compress P cmp d = Ok f -> k < nlen f ->
  exists evs' av, channel_recv decompress P tol evs (nfirst k f) = (RcvEOF, evs', av).
Proof.
  intros Hf Hk. destruct (frame_shape _ _ _ Hf) as (flag & body & Eb & Hl & -> & Hd).
  set (h := be4 (nlen body) ++ [if flag then x01 else x00]) in *.
  assert (Hh : nlen h = 5) by reflexivity. rewrite (nlen_app h), Hh, nlen_app in Hk.
  unfold channel_recv. rewrite Hhdr.
  destruct (N.ltb_spec k 5) as [H5|H5].
  { destruct (stream_read_short tol (chunk P) evs 5 (nfirst k (h ++ body ++ flusher P)) []) as (e1 & a1 & ->); [|eauto].
    pose proof (nlen_nfirst_le k (h ++ body ++ flusher P)). lia. }
  rewrite nfirst_app_ge, Hh by lia.
  pose proof (stream_read_exact tol (chunk P) evs 5 h (nfirst (k - 5) (body ++ flusher P)) [] Hh) as H1.
  destruct (stream_read _ _ evs _ _ _) as [[[r|] evs1] av1]; [destruct H1 as (-> & -> & _)|eauto].
  unfold h. cbn [be4 app]. rewrite un4_be4 by exact Hl.
  destruct (stream_read_short tol (chunk P) evs1 (nlen body + nlen (flusher P)) (nfirst (k - 5) (body ++ flusher P)) []) as (e2 & a2 & ->); [|eauto].
  pose proof (nlen_nfirst_le (k - 5) (body ++ flusher P)). lia.
Qed.

Lemma frames_cons cmp d pkts fs : frames cmp (d :: pkts) = Ok fs ->
  exists f fs', frame compress P cmp d = Ok f /\ frames cmp pkts = Ok fs' /\ fs = f :: fs'.
Proof.
  cbn [frames fold_right]. fold (frames cmp pkts).
  intros E. apply bind_Ok in E as (f & Ef & E). apply bind_Ok in E as (fs' & Efs & [= <-]). eauto.
Qed.

Lemma recv_empty tol evs : exists evs' av, channel_recv decompress P tol evs [] = (RcvEOF, evs', av).
Proof.
  unfold channel_recv. destruct (stream_read_short tol (chunk P) evs (hdr_size P) [] []) as (e & a & ->); [|eauto].
  now rewrite Hhdr.
Qed.

(* delivery: any packets, any compression setting of the sender, any read oracle without hard faults *)
Theorem recv_all_delivery tol cmp : forall pkts fs evs acc fuel, frames cmp pkts = Ok fs -> benign_r tol evs ->
  (length pkts < fuel)%nat ->
  recv_all decompress P fuel tol evs (concat fs) acc = (List.rev acc ++ pkts, false).
Proof.
  induction pkts as [|d pkts IH]; intros fs evs acc fuel Hfs Hb Hfuel; (destruct fuel as [|fuel]; [cbn in Hfuel; lia|]).
  - injection Hfs as <-. cbn [recv_all concat]. destruct (recv_empty tol evs) as (e & a & ->). now rewrite app_nil_r.
  - destruct (frames_cons _ _ _ _ Hfs) as (f & fs' & Hf & Hfs' & ->). cbn [recv_all concat].
    destruct (channel_recv_frame tol cmp d f evs (concat fs') Hf) as [(evs1 & -> & B1)|(evs1 & av & _ & B1)]; [|contradiction].
    rewrite (IH fs' evs1 (d :: acc) fuel Hfs' (B1 Hb)) by (cbn in Hfuel; lia).
    cbn [List.rev]. now rewrite <- app_assoc.
Qed.

(* the stream cut after [k] bytes, any read oracle: a prefix of the packets sent is received -- none shortened, padded
      or merged -- and without hard faults exactly the packets wholly before the cut *)
Fixpoint whole_before (k : N) (fs : list (list byte)) : nat :=
  match fs with [] => O | f :: t => if k <? nlen f then O else S (whole_before (k - nlen f) t) end.

Theorem recv_all_cut tol cmp : forall pkts fs k evs acc fuel, frames cmp pkts = Ok fs ->
  exists n, recv_all decompress P fuel tol evs (nfirst k (concat fs)) acc = (List.rev acc ++ firstn n pkts, false) /\
            (benign_r tol evs -> (length pkts < fuel)%nat -> n = whole_before k fs).
Proof.
  induction pkts as [|d pkts IH]; intros fs k evs acc fuel Hfs.
  - injection Hfs as <-. exists O. cbn [concat whole_before firstn]. rewrite nfirst_all, app_nil_r by (cbn; lia).
    split; [|reflexivity]. destruct fuel as [|fuel]; [reflexivity|]. cbn [recv_all].
    now destruct (recv_empty tol evs) as (e & a & ->).
  - destruct (frames_cons _ _ _ _ Hfs) as (f & fs' & Hf & Hfs' & ->). cbn [concat whole_before].
    destruct fuel as [|fuel]. { exists O. cbn. rewrite app_nil_r. split; [reflexivity | intros _ H; inversion H]. }
    cbn [recv_all]. destruct (N.ltb_spec k (nlen f)) as [Hk|Hk].
    + exists O. rewrite nfirst_app_le by lia.
      destruct (channel_recv_cut tol cmp d f evs k Hf Hk) as (e & a & ->). cbn [firstn]. now rewrite app_nil_r.
    + rewrite nfirst_app_ge by exact Hk.
      destruct (channel_recv_frame tol cmp d f evs (nfirst (k - nlen f) (concat fs')) Hf) as [(evs1 & -> & B1)|(evs1 & av & -> & B1)].
      * destruct (IH fs' (k - nlen f) evs1 (d :: acc) fuel Hfs') as (n & -> & Hn). exists (S n).
        cbn [List.rev firstn]. rewrite <- app_assoc. split; [reflexivity|].
        intros Hb Hfuel. f_equal. apply Hn; [auto | cbn in Hfuel; lia].
      * exists O. cbn. rewrite app_nil_r. split; [reflexivity | contradiction].
Qed.

(* sender and receiver composed, over a transport that splits writes and reads arbitrarily *)

(* send each packet in turn, threading the write oracle, accumulating the wire *)
Fixpoint send_all (cmp : bool) (evs : list wev) (pkts : list (list byte)) (wire : list byte) : result (bool * list byte) :=
  match pkts with
  | [] => Ok (true, wire)
  | d :: t => match channel_send compress P cmp evs d with
              | Ok (true, w, evs') => send_all cmp evs' t (wire ++ w)
              | Ok (false, w, _) => Ok (false, wire ++ w)
              | Raise e => Raise e | OutOfFuel => OutOfFuel | Unmodelled => Unmodelled
              end
  end.

Lemma send_all_wire cmp : forall pkts fs evs wire, frames cmp pkts = Ok fs -> benign_w evs ->
  send_all cmp evs pkts wire = Ok (true, wire ++ concat fs).
Proof.
  induction pkts as [|d t IH]; intros fs evs wire Hfs Hb.
  - injection Hfs as <-. cbn. now rewrite app_nil_r.
  - destruct (frames_cons cmp d t fs Hfs) as (f & fs' & Hf & Hfs' & ->). cbn [send_all concat].
    destruct (send_complete cmp d evs f Hb Hf) as (evs' & -> & B). rewrite (IH fs' evs' (wire ++ f) Hfs' B). now rewrite <- app_assoc.
Qed.

Theorem end_to_end tol cmp pkts fs wevs revs fuel : frames cmp pkts = Ok fs -> benign_w wevs -> benign_r tol revs ->
  (length pkts < fuel)%nat ->
  exists wire, send_all cmp wevs pkts [] = Ok (true, wire) /\ recv_all decompress P fuel tol revs wire [] = (pkts, false).
Proof using zlib_roundtrip Hhdr Hchunk.
  intros Hfs Hw Hr Hfuel. exists (concat fs). split.
  - exact (send_all_wire cmp pkts fs wevs [] Hfs Hw).
  - exact (recv_all_delivery tol cmp pkts fs revs [] fuel Hfs Hr Hfuel).
Qed.
End Z.
