(* Inductive invariants of model/SendQ.v for an unbounded number of threads and messages, any scheduler. *)
From V Require Import lib.Base model.SendQ.

Lemma upd_same f i t : upd f i t i = t.
Proof. unfold upd. now rewrite Nat.eqb_refl. Qed.
Lemma upd_other f i j t : j <> i -> upd f i t j = f j.
Proof. unfold upd. intros H. apply Nat.eqb_neq in H. now rewrite H. Qed.

Definition proj (i : nat) (l : list msg) : list nat := map snd (filter (fun m => Nat.eqb (fst m) i) l).
Lemma proj_app i a b : proj i (a ++ b) = proj i a ++ proj i b.
Proof. unfold proj. now rewrite filter_app, map_app. Qed.
Lemma proj_one i j k : proj i [(j, k)] = if Nat.eqb j i then [k] else [].
Proof. unfold proj. cbn. now destruct (Nat.eqb j i). Qed.

Definition held (s : st) : list msg :=
  match lock s with Some h => match cur (thrs s h) with Some m => [m] | None => [] end | None => [] end.

Lemma ret_pc_spec t : (ret_pc t = P0 /\ next t < total t) \/ (ret_pc t = Done /\ total t <= next t).
Proof. unfold ret_pc. destruct (Nat.ltb_spec (next t) (total t)); auto. Qed.

Definition issues (s : st) (i : nat) : list msg := match tpc (thrs s i) with P0 => [(i, next (thrs s i))] | _ => [] end.
Lemma proj_issues s i j : proj j (issues s i) = if Nat.eqb i j then seq (next (thrs s i)) (length (issues s i)) else [].
Proof. unfold issues. destruct (tpc (thrs s i)); try apply proj_one. all: now destruct (Nat.eqb i j). Qed.

Definition mutex (s : st) : Prop := forall j, in_cs (tpc (thrs s j)) = true <-> lock s = Some j.
Definition cur_ok (t : thr) : Prop := cur t = None <-> tpc t <> P5.
Definition cnt_ok (t : thr) : Prop :=
  next t <= total t /\ (tpc t = P0 -> next t < total t) /\ (tpc t = Done -> next t = total t).
Definition pop_ok (s : st) : Prop := forall j, tpc (thrs s j) = P4 -> queue s <> [].
Definition retests (s : st) (i : nat) : Prop :=
  let p := tpc (thrs s i) in p = P0 \/ p = P1 \/ in_cs p = true \/ (p = P2 /\ lock s = None).

(* [H : step i s = Some s'] holds in ten ways: one goal for each, in program order, with [s'] replaced by the state built
   and the moving thread's new record exposed *)
Ltac step_cases H :=
  unfold step in H; cbv zeta in H;
  match type of H with match tpc (thrs ?s ?i) with _ => _ end = _ =>
    destruct (tpc (thrs s i)) eqn:Epc;
    [ | destruct (queue s) eqn:Eq | destruct (lock s) eqn:El | destruct (queue s) eqn:Eq | destruct (queue s) eqn:Eq
      | destruct (cur (thrs s i)) eqn:Ec | | ]; try discriminate H
  end;
  injection H as <-; cbn [thrs queue lock wire]; rewrite ?upd_same; cbn [tpc next total cur].

Section Step.
Context {i : nat} {s s' : st}.

Lemma step_other j : step i s = Some s' -> j <> i -> thrs s' j = thrs s j.
Proof. intros H Hj. step_cases H. all: now apply upd_other. Qed.

Lemma step_local (ok : thr -> Prop) :
  step i s = Some s' -> ok (thrs s' i) -> (forall j, ok (thrs s j)) -> forall j, ok (thrs s' j).
Proof. intros H Hi A j. destruct (Nat.eq_dec j i) as [->|Hj]; [exact Hi|rewrite (step_other j H Hj); apply A]. Qed.

Lemma step_total j : step i s = Some s' -> total (thrs s' j) = total (thrs s j).
Proof.
  intros H. destruct (Nat.eq_dec j i) as [->|Hj]; [|now rewrite (step_other j H Hj)].
  step_cases H. all: reflexivity.
Qed.

Lemma step_next : step i s = Some s' -> next (thrs s' i) = length (issues s i) + next (thrs s i).
Proof. intros H. unfold issues. step_cases H. all: reflexivity. Qed.

Lemma step_cur : step i s = Some s' -> cur_ok (thrs s' i).
Proof.
  intros H. step_cases H. all: unfold cur_ok; cbn [cur tpc]; try destruct (ret_pc_spec (thrs s i)) as [[-> _]|[-> _]].
  all: split; congruence.
Qed.

Lemma step_cnt : step i s = Some s' -> cnt_ok (thrs s i) -> cnt_ok (thrs s' i).
Proof.
  intros H (A & B & C). step_cases H; try specialize (B eq_refl).
  all: unfold cnt_ok; cbn [tpc next total]; try destruct (ret_pc_spec (thrs s i)) as [[-> ?]|[-> ?]].
  all: repeat split; try discriminate; intros; first [assumption|lia].
Qed.

Lemma step_lock : step i s = Some s' ->
  let p := tpc (thrs s i) in let p' := tpc (thrs s' i) in
  (in_cs p' = in_cs p /\ lock s' = lock s)
  \/ (in_cs p = false /\ lock s = None /\ in_cs p' = true /\ lock s' = Some i)
  \/ (in_cs p = true /\ in_cs p' = false /\ lock s' = None).
Proof.
  intros H. step_cases H. all: try destruct (ret_pc_spec (thrs s i)) as [[-> _]|[-> _]]. all: cbn [in_cs]; auto 6.
Qed.

Lemma step_mutex : step i s = Some s' -> mutex s -> mutex s'.
Proof.
  intros H M j. pose proof (M i) as Mi. pose proof (M j) as Mj. destruct (Nat.eq_dec j i) as [->|Hj].
  - destruct (step_lock H) as [[-> ->]|[(_ & _ & -> & ->)|(_ & -> & ->)]]; [exact Mi|tauto|split; discriminate].
  - rewrite (step_other j H Hj). destruct (step_lock H) as [[_ ->]|[(_ & L & _ & ->)|(A & _ & ->)]]; [exact Mj| |].
    + rewrite L in Mj. split; [intros X; apply Mj in X; discriminate|congruence].
    + split; [|discriminate]. intros X. apply Mj in X. apply Mi in A. congruence.
Qed.

Lemma held_other t q l w : l = lock s -> l <> Some i -> held {| thrs := upd (thrs s) i t; queue := q; lock := l; wire := w |} = held s.
Proof. intros -> L. unfold held. cbn. destruct (lock s) as [h|]; [|reflexivity]. now rewrite upd_other by congruence. Qed.

(* wire, then the message being written, then the queue: one list, which only ever grows at its end.
   Outside the critical section the holder, if any, is another thread, whose message stays where it is *)
Lemma step_flow_outside : step i s = Some s' -> in_cs (tpc (thrs s i)) = false -> lock s <> Some i ->
  wire s' ++ held s' ++ queue s' = (wire s ++ held s ++ queue s) ++ issues s i.
Proof.
  intros H Ho L. unfold issues. step_cases H; try discriminate Ho; rewrite ?app_nil_r.
  all: try (rewrite held_other by congruence; now rewrite ?app_assoc).
  (* taking the free lock *)
  unfold held. cbn [lock thrs]. now rewrite El, upd_same.
Qed.

(* inside it the mover holds the lock, and a message only at P5 *)
Lemma step_flow_inside : step i s = Some s' -> in_cs (tpc (thrs s i)) = true -> lock s = Some i -> cur_ok (thrs s i) ->
  wire s' ++ held s' ++ queue s' = (wire s ++ held s ++ queue s) ++ issues s i.
Proof.
  intros H Hi L C. unfold cur_ok in C. unfold issues, held at 2. rewrite L.
  step_cases H; try discriminate Hi; unfold held; cbn [lock thrs]; rewrite ?L, ?upd_same; cbn [cur].
  all: rewrite ?(proj2 C) by discriminate; now rewrite ?app_nil_r, <- ?app_assoc.
Qed.

Lemma step_flow : step i s = Some s' -> mutex s -> cur_ok (thrs s i) ->
  wire s' ++ held s' ++ queue s' = (wire s ++ held s ++ queue s) ++ issues s i.
Proof.
  intros H M C. destruct (in_cs (tpc (thrs s i))) eqn:E.
  - apply step_flow_inside; auto. now apply M.
  - apply step_flow_outside; auto. intros X. apply M in X. congruence.
Qed.
Lemma step_queue : step i s = Some s' -> in_cs (tpc (thrs s i)) = false -> queue s' = queue s ++ issues s i.
Proof. intros H Ho. unfold issues. step_cases H; try discriminate Ho; now rewrite ?app_nil_r. Qed.

Lemma step_pop : step i s = Some s' -> mutex s -> pop_ok s -> pop_ok s'.
Proof.
  intros H M P j Hj. destruct (Nat.eq_dec j i) as [->|Hne].
  - revert Hj. step_cases H. all: try destruct (ret_pc_spec (thrs s i)) as [[-> _]|[-> _]]. all: intros X; discriminate.
  - (* another thread about to pop holds the lock, so the mover is outside *)
    rewrite (step_other j H Hne) in Hj. pose proof (P j Hj) as Q.
    assert (L : lock s = Some j) by (apply M; now rewrite Hj).
    destruct (in_cs (tpc (thrs s i))) eqn:E; [apply M in E; congruence|].
    rewrite (step_queue H E). destruct (queue s); [contradiction|discriminate].
Qed.

Lemma step_retest : step i s = Some s' ->
  queue s' = [] \/ retests s' i
  \/ (in_cs (tpc (thrs s i)) = false /\ lock s' = lock s /\ (lock s = None -> tpc (thrs s' i) = P2)).
Proof.
  intros H. unfold retests. step_cases H.
  all: cbn [in_cs]; first [now left|right; left; tauto|right; right; repeat split; congruence].
Qed.
End Step.

Record Inv (s : st) : Prop := {
  I_mutex : mutex s;
  I_cur : forall i, cur_ok (thrs s i);
  I_seq : forall i, proj i (wire s ++ held s ++ queue s) = seq 0 (next (thrs s i));
  I_pop : pop_ok s;
  I_cnt : forall i, cnt_ok (thrs s i);
  I_retest : queue s <> [] -> exists i, retests s i
}.

Lemma inv_init totals : Inv (init totals).
Proof.
  constructor; unfold init, mutex, cur_ok, pop_ok, cnt_ok; cbn [thrs queue lock wire tpc next total cur].
  - intros i. destruct (0 <? totals i); split; discriminate.
  - intros i. destruct (0 <? totals i); split; [discriminate|reflexivity|discriminate|reflexivity].
  - reflexivity.
  - intros i. destruct (0 <? totals i); discriminate.
  - intros i. destruct (Nat.ltb_spec 0 (totals i)); repeat split; try discriminate; lia.
  - congruence.
Qed.

Lemma inv_step s i s' : Inv s -> step i s = Some s' -> Inv s'.
Proof.
  intros [M C S P N _] H. constructor.
  - exact (step_mutex H M).
  - exact (step_local cur_ok H (step_cur H) C).
  - intros j. rewrite (step_flow H M (C i)), proj_app, S, proj_issues.
    destruct (Nat.eqb_spec i j) as [<-|Hj]; [now rewrite (step_next H), Nat.add_comm, seq_app|].
    rewrite (step_other j H) by congruence. apply app_nil_r.
  - exact (step_pop H M P).
  - exact (step_local cnt_ok H (step_cnt H (N i)) N).
  - intros Hq. destruct (step_retest H) as [Q|[Ri|(A & L & W)]]; [contradiction|now exists i|].
    destruct (lock s) as [h|] eqn:El.
    + (* the holder is not the mover, is in the critical section, and has not moved *)
      exists h. assert (Hh : h <> i) by (intros ->; apply (M i) in El; congruence).
      unfold retests. rewrite (step_other h H Hh). right; right; left. now apply (M h).
    + exists i. unfold retests. rewrite (W eq_refl), L. auto.
Qed.

Theorem inv_reach s0 s : Inv s0 -> reach s0 s -> Inv s.
Proof. intros H R. induction R; eauto using inv_step. Qed.
Corollary inv_reachable totals s : reach (init totals) s -> Inv s.
Proof. apply inv_reach, inv_init. Qed.

Lemma total_const totals s : reach (init totals) s -> forall i, total (thrs s i) = totals i.
Proof.
  intros R. induction R as [|s1 k s2 R1 IH St]; intros i; [reflexivity|].
  rewrite (step_total i St). apply IH.
Qed.

Definition all_returned (s : st) := forall i, tpc (thrs s i) = Done.

Theorem quiescent_empty s : Inv s -> all_returned s -> queue s = [] /\ lock s = None.
Proof.
  intros I D. split.
  - destruct (queue s) eqn:E; [reflexivity|exfalso]. destruct (I_retest s I) as [i Hi]; [congruence|].
    unfold retests in Hi. rewrite (D i) in Hi. cbn in Hi. intuition discriminate.
  - destruct (lock s) as [h|] eqn:E; [|reflexivity]. apply (I_mutex s I) in E. rewrite (D h) in E. discriminate.
Qed.

Theorem quiescent_wire s : Inv s -> all_returned s -> forall i, proj i (wire s) = seq 0 (total (thrs s i)).
Proof.
  intros I D i. destruct (quiescent_empty s I D) as [Q L]. pose proof (I_seq s I i) as H.
  unfold held in H. rewrite L, Q in H. cbn [app] in H. rewrite app_nil_r in H. rewrite H.
  destruct (I_cnt s I i) as (_ & _ & X). now rewrite (X (D i)).
Qed.

Theorem no_blocking s i : Inv s -> tpc (thrs s i) <> Done -> exists s', step i s = Some s'.
Proof.
  intros I H. unfold step. cbv zeta. destruct (tpc (thrs s i)) eqn:E; try congruence; eauto.
  - destruct (queue s); eauto.
  - destruct (lock s); eauto.
  - destruct (queue s); eauto.
  - pose proof (I_pop s I i E). destruct (queue s); [congruence|eauto].
  - destruct (cur (thrs s i)) eqn:Ec; [eauto|]. apply (I_cur s I) in Ec. congruence.
Qed.
