(* The two-peer machine of model/CallTree.v computes the evaluation seen through the connection, and nothing else.
   A run is put together from [moves] between [calm] states (no message in flight); that every execution is that run
   rests on a count: the running stack, the message in flight or the delivered result holds the one token ([Tok]). *)
From V Require Import lib.Base model.CallTree.
From Coq Require Import Relations.

Lemma upd_same f s p : upd f s p s = p.
Proof. unfold upd. now rewrite side_eqb_refl. Qed.
Lemma upd_other f s p : upd f s p (other s) = f (other s).
Proof. unfold upd. now rewrite side_eqb_other. Qed.
Lemma upd_other' f s p : upd f (other s) p s = f s.
Proof. unfold upd. now rewrite side_eqb_other'. Qed.
Lemma send_same f t m : send f t m t = {| stack := stack (f t); nseq := nseq (f t); inbox := inbox (f t) ++ [m] |}.
Proof. apply upd_same. Qed.
Lemma send_other f t m : send f t m (other t) = f (other t).
Proof. apply upd_other. Qed.
Lemma send_other' f t m : send f (other t) m t = f t.
Proof. apply upd_other'. Qed.
#[local] Hint Rewrite other_other upd_same upd_other upd_other' send_same send_other send_other' : upd.

Lemma side_cases (s t : side) : t = s \/ t = other s.
Proof. destruct s, t; auto. Qed.

Lemma node_ind' (P : node -> Prop) :
  (forall s i kids r, Forall (fun kc => P (fst kc)) kids -> P (Node s i kids r)) -> forall n, P n.
Proof.
  intros H. fix IH 1. intros [s i kids r]. apply H.
  induction kids as [|[k c] ks IHk]; constructor; [apply IH | exact IHk].
Qed.

Definition quiet (K : list frame) : Prop := K = [] \/ exists q K', K = FWait q :: K'.
Lemma not_quiet_run r n ks acc K : ~ quiet (FRun r n ks acc :: K).
Proof. intros [X|(q & K' & X)]; discriminate. Qed.
Lemma not_quiet_ret r o K : ~ quiet (FRet r o :: K).
Proof. intros [X|(q & K' & X)]; discriminate. Qed.
Lemma quiet_wait q K : quiet (FWait q :: K).
Proof. right. eauto. Qed.
Lemma quiet_nil : quiet [].
Proof. now left. Qed.
#[local] Hint Resolve not_quiet_run not_quiet_ret quiet_wait quiet_nil : core.

Section W.
Variable xw : side -> list nat -> list nat.
Local Notation pstep := (CallTree.pstep xw).
Local Notation step := (CallTree.step xw).
Local Notation steps := (CallTree.steps xw).
Local Notation pstep_fun := (CallTree.pstep_fun xw).
Local Notation exec := (CallTree.exec xw).
Local Notation evalx := (CallTree.evalx xw).
Local Notation evalkx := (CallTree.evalkx xw).
Local Notation evalroot := (CallTree.evalroot xw).
Local Notation seen_by := (CallTree.seen_by xw).

Lemma step1 s y y' : pstep s y y' -> steps y y'.
Proof. intros H. apply rt_step. now exists s. Qed.

(* No message is in flight; [s] has stack [K], its peer [Ko]. *)
Definition calm (s : side) (K Ko : list frame) (f : side -> peer) : Prop :=
  stack (f s) = K /\ inbox (f s) = [] /\ stack (f (other s)) = Ko /\ inbox (f (other s)) = [].

(* From every calm state of the first shape the machine can reach one of the second, logging [dl]. *)
Definition moves s K Ko s' K' Ko' (dl : list nat) : Prop := forall f l res,
  calm s K Ko f -> exists f', steps (mk f l res) (mk f' (l ++ dl) res) /\ calm s' K' Ko' f'.

Lemma calm_peer {s K Ko f} : calm s K Ko f -> f s = {| stack := K; nseq := nseq (f s); inbox := [] |}.
Proof. intros (A & B & _). destruct (f s). cbn in *. now subst. Qed.

Lemma calm_upd {s K Ko f} K' q : calm s K Ko f -> calm s K' Ko (upd f s {| stack := K'; nseq := q; inbox := [] |}).
Proof. intros (_ & _ & C & D). unfold calm. autorewrite with upd. auto. Qed.

Lemma moves_trans {s K Ko s1 K1 Ko1 d1 s2 K2 Ko2 d2} :
  moves s K Ko s1 K1 Ko1 d1 -> moves s1 K1 Ko1 s2 K2 Ko2 d2 -> moves s K Ko s2 K2 Ko2 (d1 ++ d2).
Proof.
  intros M1 M2 f l res C. destruct (M1 f l res C) as (f1 & S1 & C1). destruct (M2 f1 (l ++ d1) res C1) as (f2 & S2 & C2).
  exists f2. split; [|exact C2]. rewrite app_assoc. now apply rt_trans with (mk f1 (l ++ d1) res).
Qed.

Lemma moves_step s K Ko K' dl :
  (forall f l res q, f s = {| stack := K; nseq := q; inbox := [] |} ->
     pstep s (mk f l res) (mk (upd f s {| stack := K'; nseq := q; inbox := [] |}) (l ++ dl) res)) ->
  moves s K Ko s K' Ko dl.
Proof. intros H f l res C. eexists. split; [apply (step1 s), H, (calm_peer C) | eapply calm_upd, C]. Qed.

Lemma moves_fin s r n acc K Ko : moves s (FRun r n [] acc :: K) Ko s (FRet r (finish n acc) :: K) Ko [].
Proof. apply moves_step. intros f l res q E. rewrite app_nil_r. now apply st_fin. Qed.

Lemma moves_local s r n k c ks acc K Ko : nside k = s ->
  moves s (FRun r n ((k, c) :: ks) acc :: K) Ko s (FRun None k (nkids k) 0 :: FCall r n ks acc c :: K) Ko [nid k].
Proof. intros Hs. apply moves_step. intros f l res q E. now apply st_local. Qed.

Lemma moves_ret s o r n ks acc c K Ko :
  moves s (FRet None o :: FCall r n ks acc c :: K) Ko
        s (match o with
           | Val v => FRun r n ks (acc + v) :: K
           | Exc e => if catches c e then FRun r n ks acc :: K else FRet r (Exc e) :: K
           end) Ko [].
Proof.
  apply moves_step. intros f l res q E. rewrite app_nil_r. destruct o as [v|e]; [eapply st_ret_val, E|].
  destruct (catches c e) eqn:Ec; [eapply st_ret_caught | eapply st_ret_uncaught]; eassumption.
Qed.

(* [s] sends [m] and its peer, calm until then, takes it *)
Lemma hand_over s p m Kr dl K Ko f l res :
  calm s K Ko f -> inbox p = [] ->
  pstep s (mk f l res) (mk (send (upd f s p) (other s) m) l res) ->
  (forall f0 q, f0 (other s) = {| stack := Ko; nseq := q; inbox := [m] |} ->
     pstep (other s) (mk f0 l res) (mk (upd f0 (other s) {| stack := Kr; nseq := q; inbox := [] |}) (l ++ dl) res)) ->
  exists f', steps (mk f l res) (mk f' (l ++ dl) res) /\ calm (other s) Kr (stack p) f'.
Proof.
  intros (_ & _ & So & Io) Ip S1 S2. set (f0 := send (upd f s p) (other s) m) in *.
  assert (Eo : f0 (other s) = {| stack := Ko; nseq := nseq (f (other s)); inbox := [m] |}).
  { unfold f0. autorewrite with upd. now rewrite So, Io. }
  eexists. split; [exact (rt_trans _ _ _ _ _ (step1 _ _ _ S1) (step1 _ _ _ (S2 f0 _ Eo)))|].
  unfold calm, f0. autorewrite with upd. auto.
Qed.

Lemma request s r n k c ks acc K Ko f l res :
  calm s (FRun r n ((k, c) :: ks) acc :: K) Ko f -> quiet Ko -> nside k = other s ->
  exists q f', steps (mk f l res) (mk f' (l ++ [nid k]) res) /\
               calm (other s) (FRun (Some q) k (nkids k) 0 :: Ko) (FWait q :: FCall r n ks acc c :: K) f'.
Proof.
  intros C Q Hs. exists (nseq (f s)).
  apply (hand_over s {| stack := FWait (nseq (f s)) :: FCall r n ks acc c :: K; nseq := S (nseq (f s)); inbox := [] |}
                   (Req (nseq (f s)) k) _ [nid k] _ Ko f l res C eq_refl).
  - apply st_remote; [exact (calm_peer C) | exact Hs].
  - intros f0 q0 E0. destruct Q as [-> | (q' & K' & ->)]; [now apply st_idle | now apply st_nested].
Qed.

Lemma moves_reply s q o K Ko :
  moves s (FRet (Some q) o :: Ko) (FWait q :: K) (other s) (FRet None (cross (xw (other s)) o) :: K) Ko [].
Proof.
  intros f l res C.
  apply (hand_over s {| stack := Ko; nseq := nseq (f s); inbox := [] |} (Rep q (cross (xw (other s)) o)) _ [] _ _ f l res C eq_refl).
  - apply st_ret_remote, (calm_peer C).
  - intros f0 q0 E0. rewrite app_nil_r. eapply st_reply, E0.
Qed.

Definition runs (n : node) (ks : list (node * catch)) : Prop := forall acc r s K Ko, quiet Ko ->
  moves s (FRun r n ks acc :: K) Ko s (FRet r (snd (evalkx s n ks acc)) :: K) Ko (fst (evalkx s n ks acc)).

Lemma evalx_parts k :
  fst (evalx k) = nid k :: fst (evalkx (nside k) k (nkids k) 0) /\ snd (evalx k) = snd (evalkx (nside k) k (nkids k) 0).
Proof. rewrite evalx_evalkx. now destruct (evalkx (nside k) k (nkids k) 0). Qed.

Lemma call_child k c r n ks acc s K Ko : runs k (nkids k) -> quiet Ko ->
  moves s (FRun r n ((k, c) :: ks) acc :: K) Ko
        s (FRet None (seen_by s k (snd (evalx k))) :: FCall r n ks acc c :: K) Ko (fst (evalx k)).
Proof.
  intros Rk Q. destruct (evalx_parts k) as [-> ->]. unfold CallTree.seen_by. destruct (side_eqb (nside k) s) eqn:Hs.
  - apply side_eqb_eq in Hs. subst s.
    exact (moves_trans (moves_local _ r n k c ks acc K Ko eq_refl) (Rk 0 None _ _ _ Q)).
  - apply side_neq_other in Hs. rewrite Hs. intros f l res C.
    destruct (request _ _ _ _ _ _ _ _ _ _ l res C Q Hs) as (q & f1 & S1 & C1).
    destruct (moves_trans (Rk 0 (Some q) _ Ko _ (quiet_wait q _)) (moves_reply (other s) q _ _ Ko) _ (l ++ [nid k]) res C1)
      as (f2 & S2 & C2). rewrite other_other in C2.
    exists f2. split; [|exact C2]. rewrite app_nil_r, <- app_assoc in S2.
    now apply rt_trans with (mk f1 (l ++ [nid k]) res).
Qed.

Lemma kids_run n ks : Forall (fun kc => runs (fst kc) (nkids (fst kc))) ks -> runs n ks.
Proof.
  induction ks as [|[k c] ks IH]; intros HF acc r s K Ko Q; [apply moves_fin|].
  inversion_clear HF as [|? ? Rk HF']. specialize (IH HF').
  generalize (moves_trans (call_child k c r n ks acc s K Ko Rk Q) (moves_ret _ _ _ _ _ _ _ _ _)).
  cbn [CallTree.evalkx]. destruct (evalx k) as [l1 o0]. cbn [fst snd]. rewrite app_nil_r.
  destruct (seen_by s k o0) as [v|e]; [|destruct (catches c e)]; intros M.
  - specialize (IH (acc + v) r s K Ko Q). destruct (evalkx s n ks (acc + v)). exact (moves_trans M IH).
  - specialize (IH acc r s K Ko Q). destruct (evalkx s n ks acc). exact (moves_trans M IH).
  - exact M.
Qed.

Theorem node_runs n : runs n (nkids n).
Proof. induction n as [s i kids r HF] using node_ind'. now apply kids_run. Qed.

Theorem distributed_eq_local root :
  exists f' : side -> peer,
    steps (init root) (mk f' (fst (evalroot root)) (Some (snd (evalroot root)))) /\
    stack (f' SA) = [] /\ stack (f' SB) = [] /\ inbox (f' SA) = [] /\ inbox (f' SB) = [].
Proof.
  destruct (node_runs root 0 None SA [] [] quiet_nil (peers (init root)) [nid root] None (conj eq_refl (conj eq_refl (conj eq_refl eq_refl))))
    as (f1 & S1 & C1).
  unfold CallTree.evalroot. destruct (evalkx SA root (nkids root) 0) as [l o].
  exists (upd f1 SA {| stack := []; nseq := nseq (f1 SA); inbox := [] |}).
  destruct (calm_upd [] (nseq (f1 SA)) C1) as (A & B & C & D). repeat split; try assumption.
  apply rt_trans with (1 := S1), (step1 SA), st_root, (calm_peer C1).
Qed.

Lemma pstep_fun_sound s y y' : pstep_fun s y = Some y' -> pstep s y y'.
Proof.
  unfold CallTree.pstep_fun. destruct y as [f l res]. cbn [peers log result]. fold (mk f l res).
  destruct (f s) as [K q ib] eqn:E. cbn [stack nseq inbox].
  destruct K as [|[r n [|[k c] ks] acc | r n ks acc c | [rq|] o | q0] K].
  - destruct ib as [|[rq k|] ib]; try discriminate. intros [= <-]. now apply st_idle.
  - intros [= <-]. now apply st_fin.
  - destruct (side_eqb (nside k) s) eqn:Hs; intros [= <-].
    + apply st_local; [exact E | now apply side_eqb_eq].
    + apply st_remote; [exact E | now apply side_neq_other].
  - discriminate.
  - intros [= <-]. now apply st_ret_remote.
  - destruct K as [|[| r n ks acc c | |] K]; try discriminate.
    + destruct res; [discriminate|]. intros [= <-]. now apply st_root.
    + destruct o as [v|e]; [|destruct (catches c e) eqn:Ec]; intros [= <-].
      * eapply st_ret_val, E.
      * eapply st_ret_caught; eassumption.
      * eapply st_ret_uncaught; eassumption.
  - destruct ib as [|[rq k|q1 o] ib]; try discriminate.
    + intros [= <-]. now apply st_nested.
    + destruct (Nat.eqb_spec q1 q0) as [->|]; [|discriminate]. intros [= <-]. eapply st_reply, E.
Qed.

Lemma pstep_fun_complete s y y' : pstep s y y' -> pstep_fun s y = Some y'.
Proof.
  intros H. destruct H as [* E|* E Hs|* E Hs|* E|* E|* E|* E|* E|* E Hc|* E Hc|* E];
    unfold CallTree.pstep_fun; cbn [peers log result mk]; rewrite E; cbn [stack nseq inbox];
    rewrite ?Hs, ?Hc, ?side_eqb_refl, ?side_eqb_other, ?Nat.eqb_refl; reflexivity.
Qed.

Theorem pstep_deterministic s y y1 y2 : pstep s y y1 -> pstep s y y2 -> y1 = y2.
Proof. intros H1 H2. apply pstep_fun_complete in H1, H2. congruence. Qed.

Lemma exec_steps : forall fuel y, steps y (exec fuel y).
Proof.
  induction fuel as [|fuel IH]; intros y; cbn [CallTree.exec]; [apply rt_refl|].
  destruct (pstep_fun SA y) as [y1|] eqn:EA.
  - apply rt_trans with y1; [apply (step1 SA), pstep_fun_sound, EA | apply IH].
  - destruct (pstep_fun SB y) as [y1|] eqn:EB; [|apply rt_refl].
    apply rt_trans with y1; [apply (step1 SB), pstep_fun_sound, EB | apply IH].
Qed.

(* There is one token. A peer holds it while the top of its stack is running or returning; it travels as the one message in
   flight; it comes to rest in the delivered result. A frame that serves a request lies directly on a quiet stack, so the
   stack is quiet again when the reply carries the token away. *)
Definition reply_to (fr : frame) : option nat :=
  match fr with FRun r _ _ _ | FCall r _ _ _ _ | FRet r _ => r | FWait _ => None end.
Fixpoint served_ok (K : list frame) : Prop :=
  match K with
  | [] => True
  | fr :: K' => served_ok K' /\ (reply_to fr <> None -> quiet K')
  end.
Definition busy (K : list frame) : nat := match K with [] | FWait _ :: _ => 0 | _ => 1 end.
Definition tokens (p : peer) : nat := busy (stack p) + length (inbox p).
Definition delivered (y : sys) : nat := match result y with Some _ => 1 | None => 0 end.
Definition Tok (y : sys) : Prop :=
  (forall t, served_ok (stack (peers y t))) /\ tokens (peers y SA) + tokens (peers y SB) + delivered y = 1.

Lemma quiet_busy K : quiet K -> busy K = 0.
Proof. now intros [-> | (q & K' & ->)]. Qed.

Lemma tokens_sides (f : side -> peer) s : tokens (f SA) + tokens (f SB) = tokens (f s) + tokens (f (other s)).
Proof. destruct s; cbn [other]; lia. Qed.

(* what one step does to the mover [p] and its peer [po]: the mover held a token, tokens are neither made nor lost ([d]
   counts the delivered result), only the mover's stack changes *)
Definition token_move (p po : peer) (d : nat) (p' po' : peer) (d' : nat) : Prop :=
  served_ok (stack p) ->
  1 <= tokens p /\ tokens p' + tokens po' + d' = tokens p + tokens po + d /\
  served_ok (stack p') /\ stack po' = stack po.

Lemma pstep_token s y y' : pstep s y y' ->
  token_move (peers y s) (peers y (other s)) (delivered y) (peers y' s) (peers y' (other s)) (delivered y').
Proof.
  intros H. destruct H as [* E|* E Hs|* E Hs|* E|* E|* E|* E|* E|* E Hc|* E Hc|* E];
    unfold delivered, send; cbn [peers result mk]; rewrite E, ?upd_other', ?upd_same, ?upd_other;
    unfold token_move, tokens; cbn [stack inbox served_ok reply_to busy]; rewrite ?app_length; cbn [length]; intros SO;
    (split; [apply le_n_S, Nat.le_0_l | split; [|split; [intuition (auto; congruence) | reflexivity]]]).
  (* left: the count, rule by rule *)
  - (* st_fin *) reflexivity.
  - (* st_local *) reflexivity.
  - (* st_remote: the token leaves as a request *) lia.
  - (* st_reply *) reflexivity.
  - (* st_nested *) reflexivity.
  - (* st_idle *) reflexivity.
  - (* st_ret_remote: the token leaves as a reply, and the frame that served the request lay on a quiet stack *)
    rewrite (quiet_busy K) by (apply SO; discriminate). lia.
  - (* st_ret_val *) reflexivity.
  - (* st_ret_caught *) reflexivity.
  - (* st_ret_uncaught *) reflexivity.
  - (* st_root: the token comes to rest in the result *) lia.
Qed.

Lemma tok_init root : Tok (init root).
Proof. split; [intros []; cbn; auto | reflexivity]. Qed.

Lemma tok_step s y y' : Tok y -> pstep s y y' -> Tok y'.
Proof.
  intros [SO T] H. destruct (pstep_token s y y' H (SO s)) as (_ & E & SO' & St). split.
  - intros t. destruct (side_cases s t) as [-> | ->]; [exact SO' | rewrite St; apply SO].
  - rewrite (tokens_sides _ s), E, <- (tokens_sides _ s). exact T.
Qed.

Lemma tok_steps y y' : Tok y -> steps y y' -> Tok y'.
Proof.
  intros T H. apply clos_rt_rt1n in H. induction H as [|a b c [s St] _ IH]; [exact T|].
  apply IH. eapply tok_step; eauto.
Qed.

(* two sides that can both move hold a token each *)
Lemma step_functional y y1 y2 : Tok y -> step y y1 -> step y y2 -> y1 = y2.
Proof.
  intros [SO T] [s1 H1] [s2 H2]. destruct (pstep_token _ _ _ H1 (SO s1)) as (A & _), (pstep_token _ _ _ H2 (SO s2)) as (B & _).
  destruct (side_cases s1 s2) as [-> | ->]; [now apply (pstep_deterministic s1 y)|]. rewrite (tokens_sides _ s1) in T. lia.
Qed.

Lemma stuck_with_result y o : Tok y -> result y = Some o -> forall y', ~ step y y'.
Proof.
  intros [SO T] Hr y' [s H]. destruct (pstep_token _ _ _ H (SO s)) as (A & _).
  rewrite (tokens_sides _ s) in T. unfold delivered in T. rewrite Hr in T. lia.
Qed.

(* steps being functional, every state of an execution lies on the way to any state reachable that cannot move *)
Lemma reaches_stuck a b c : Tok a -> steps a b -> steps a c -> (forall z, ~ step c z) -> steps b c.
Proof.
  intros T Hb Hc Sc. apply clos_rt_rt1n in Hb. induction Hb as [a|a a1 b St _ IH]; [exact Hc|].
  apply clos_rt_rt1n in Hc. destruct Hc as [|a2 c St2 Hc]; [now destruct (Sc a1)|].
  pose proof (step_functional a a1 a2 T St St2) as <-. destruct St as [s St].
  apply IH; [eapply tok_step; eauto | now apply clos_rt1n_rt].
Qed.

Lemma steps_cases y z : steps y z -> y = z \/ exists y1, step y y1.
Proof. intros H. apply clos_rt_rt1n in H. destruct H; eauto. Qed.

Lemma reaches_final root y : steps (init root) y ->
  exists f', steps y (mk f' (fst (evalroot root)) (Some (snd (evalroot root)))).
Proof.
  intros Hy. destruct (distributed_eq_local root) as (f' & HF & _). exists f'.
  apply (reaches_stuck _ _ _ (tok_init root) Hy HF), stuck_with_result with (2 := eq_refl), (tok_steps _ _ (tok_init root) HF).
Qed.

(* 1. whatever the interleaving, an execution that delivers a result delivers the local one, having invoked exactly the
      nodes the local evaluation invokes, in the same order, each once *)
Theorem every_execution_is_local root y o : steps (init root) y -> result y = Some o ->
  o = snd (evalroot root) /\ log y = fst (evalroot root).
Proof.
  intros Hy Hr. destruct (reaches_final root y Hy) as (f' & H). destruct (steps_cases _ _ H) as [-> | (y1 & St)].
  - injection Hr as <-. split; reflexivity.
  - now destruct (stuck_with_result y o (tok_steps _ _ (tok_init root) Hy) Hr y1).
Qed.

(* 2. no execution gets stuck before the result is delivered: an unfinished reachable state always has a step and can
      still reach the final state (that it must, i.e. that no execution runs forever, needs [step_functional] as well) *)
Theorem no_deadlock_before_result root y : steps (init root) y -> result y = None ->
  (exists y', step y y') /\ exists f', steps y (mk f' (fst (evalroot root)) (Some (snd (evalroot root)))).
Proof.
  intros Hy Hr. destruct (reaches_final root y Hy) as (f' & H). split; [|now exists f'].
  now destruct (steps_cases _ _ H) as [-> | ?].
Qed.
End W.

Section Identity.
Variable xw : side -> list nat -> list nat.
Hypothesis xw_id : forall t m, xw t m = m.
Lemma seen_by_id s k o : seen_by xw s k o = o.
Proof. unfold seen_by. destruct (side_eqb (nside k) s), o as [v|[i m]]; cbn; now rewrite ?xw_id. Qed.
Lemma evalkx_id n s : forall ks acc, Forall (fun kc => evalx xw (fst kc) = eval (fst kc)) ks -> evalkx xw s n ks acc = evalk n ks acc.
Proof.
  induction ks as [|[k c] ks IH]; intros acc HF; [reflexivity|]. inversion HF as [|? ? Hk HF']; subst. cbn [fst] in Hk.
  cbn [evalkx evalk]. rewrite Hk. destruct (eval k) as [l1 o0]. rewrite seen_by_id.
  destruct o0 as [v|e]; [now rewrite IH|destruct (catches c e); [now rewrite IH|reflexivity]].
Qed.
Lemma evalx_id : forall n, evalx xw n = eval n.
Proof.
  induction n as [s i kids r HF] using node_ind'. rewrite evalx_evalkx, eval_evalk. cbn [nside nkids nid].
  now rewrite (evalkx_id (Node s i kids r) s kids 0 HF).
Qed.
Lemma evalroot_id root : evalroot xw root = eval root.
Proof.
  unfold evalroot. rewrite eval_evalk. rewrite evalkx_id; [reflexivity|]. apply Forall_forall. intros kc _. apply evalx_id.
Qed.
End Identity.
