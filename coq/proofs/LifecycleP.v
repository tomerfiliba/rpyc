(* model/Lifecycle.v. Between entry points a side is untouched but for its channel, or ended; with the core guards of the tree every
   closing entry point ends it, whatever the transport does.  The requests of a side follow its base ([base_rruns]). *)
From V Require Import lib.Base model.Lifecycle.

(* the invariant of a side, over every history: the hook count is 0 while the root is still there and 1 afterwards;
   a side that reports closed has been cleaned up (flag and cleanup happen inside the same call); cleaned sides have a closed channel *)
Definition Inv (s : side) : Prop :=
  (has_root s = true -> hooks s = 0 /\ closed s = false)
  /\ (has_root s = false -> hooks s = 1 /\ closed s = true /\ chan_open s = false).

Definition core_ok (P : lparams) : bool :=
  close_checks_closed_first P && close_sets_closed_before_io P && close_cleanup_in_finally P && close_swallows_eof P
  && cleanup_hook_once_guard P && cleanup_clears_in_finally P.

Definition must_end (P : lparams) (e : entry) : bool :=
  match e with
  | EClose _ | EHandleClose | ECloseServing _ => true
  | EServeReadEof _ => serve_read_eof_closes P
  | EDispatchEof c => serve_dispatch_eof_closes P || (match c with InServeAll => serve_all_finally_closes P | InWait => false end)
  end.

(* the two kinds of side that satisfy Inv: untouched but for its channel, and ended *)
Definition live (o : bool) : side := {| closed := false; hooks := 0; has_root := true; chan_open := o |}.
Definition ended : side := {| closed := true; hooks := 1; has_root := false; chan_open := false |}.

Lemma ended_clean_iff s : ended_clean s <-> s = ended.
Proof. split; [destruct s; unfold ended_clean; cbn; intros (-> & -> & -> & ->); reflexivity|intros ->; repeat split]. Qed.

Lemma inv_cases s : Inv s <-> (exists o, s = live o) \/ s = ended.
Proof.
  split.
  - destruct s as [c h [] o]; unfold Inv; cbn; intros [A B].
    + left. exists o. now destruct (A eq_refl) as [-> ->].
    + right. now destruct (B eq_refl) as (-> & -> & ->).
  - intros [[o ->]| ->]; split; cbn; auto; discriminate.
Qed.

Lemma inv_ended : Inv ended.
Proof. apply inv_cases. now right. Qed.
Lemma inv_fresh : Inv fresh.
Proof. apply inv_cases. left. now exists true. Qed.

Definition core (a b c d : bool) : lparams := Build_lparams true true true true true true a b c d.
Lemma core_ok_eta P : core_ok P = true ->
  P = core (serve_read_eof_closes P) (serve_dispatch_eof_closes P) (serve_all_finally_closes P) (handle_close_guarded P).
Proof. destruct P. unfold core_ok. cbn. intros H. repeat apply andb_true_iff in H as [H ->]. now rewrite H. Qed.

Lemma do_close_ends P hr w s : core_ok P = true -> Inv s -> fst (do_close P hr w s) = ended.
Proof. intros HP [[o ->]| ->]%inv_cases; rewrite (core_ok_eta P HP); destruct hr; reflexivity. Qed.
Lemma handle_close_ends P hr s : core_ok P = true -> Inv s -> fst (handle_close P hr s) = ended.
Proof.
  intros HP [[o ->]| ->]%inv_cases; [|reflexivity]. rewrite (core_ok_eta P HP).
  destruct hr, (handle_close_guarded P); reflexivity.
Qed.
Lemma do_close_serving_ends P hr w s : core_ok P = true -> Inv s -> fst (do_close_serving P hr w s) = ended.
Proof.
  intros HP [[o ->]| ->]%inv_cases; rewrite (core_ok_eta P HP); [|reflexivity].
  destruct hr, (handle_close_guarded P); reflexivity.
Qed.
Theorem close_idempotent P hr w s : close_checks_closed_first P = true -> closed s = true -> do_close P hr w s = (s, RNone).
Proof. intros H Hc. unfold do_close. now rewrite H, Hc. Qed.

(* the end of stream met while serving: the channel is closed, serve() closes the side if the tree says so, and so does serve_all *)
Definition shut (s : side) : side := {| closed := closed s; hooks := hooks s; has_root := has_root s; chan_open := false |}.
Definition close_if (P : lparams) (hr : bool) (b : bool) (s : side) : side := if b then fst (do_close P hr WEof s) else s.
Definition finally (P : lparams) (c : ctx) : bool := match c with InServeAll => serve_all_finally_closes P | InWait => false end.
Lemma step_eof P hr c s :
  fst (step P hr (EServeReadEof c) s) = close_if P hr (finally P c) (close_if P hr (serve_read_eof_closes P) (shut s))
  /\ fst (step P hr (EDispatchEof c) s) = close_if P hr (finally P c) (close_if P hr (serve_dispatch_eof_closes P) (shut s)).
Proof.
  cbn [step]. fold (shut s). unfold close_if, finally.
  destruct (serve_read_eof_closes P), (serve_dispatch_eof_closes P), (do_close P hr WEof (shut s)), c, (serve_all_finally_closes P); split; reflexivity.
Qed.
Lemma shut_inv s : Inv s -> Inv (shut s).
Proof. intros [[o ->]| ->]%inv_cases; apply inv_cases; [left; now exists false|now right]. Qed.
Lemma close_if_spec P hr b s : core_ok P = true -> Inv s -> Inv (close_if P hr b s) /\ (b = true \/ s = ended -> close_if P hr b s = ended).
Proof.
  intros HP I. unfold close_if. destruct b; [rewrite (do_close_ends P hr WEof s HP I)|].
  - split; [apply inv_cases; now right|reflexivity].
  - split; [exact I|]. now intros [|].
Qed.
Lemma close_twice P hr b1 b2 s : core_ok P = true -> Inv s ->
  Inv (close_if P hr b2 (close_if P hr b1 s)) /\ (b1 || b2 = true -> close_if P hr b2 (close_if P hr b1 s) = ended).
Proof.
  intros HP I. destruct (close_if_spec P hr b1 s HP I) as [I1 E1]. destruct (close_if_spec P hr b2 _ HP I1) as [I2 E2].
  split; [exact I2|]. intros [H|H]%orb_true_iff; apply E2; [right; apply E1|]; now left.
Qed.

Lemma step_spec P hr e s : core_ok P = true -> Inv s ->
  Inv (fst (step P hr e s)) /\ (must_end P e = true -> fst (step P hr e s) = ended).
Proof.
  intros HP I. pose proof (shut_inv s I) as I0.
  destruct e as [w| |w|c|c]; cbn [must_end]; [cbn [step]..| |].
  - rewrite (do_close_ends P hr w s HP I). split; [exact inv_ended|reflexivity].
  - rewrite (handle_close_ends P hr s HP I). split; [exact inv_ended|reflexivity].
  - rewrite (do_close_serving_ends P hr w s HP I). split; [exact inv_ended|reflexivity].
  - rewrite (proj1 (step_eof P hr c s)). destruct (close_twice P hr (serve_read_eof_closes P) (finally P c) _ HP I0) as [I2 E2].
    split; [exact I2|]. intros H. apply E2. now rewrite H.
  - rewrite (proj2 (step_eof P hr c s)). exact (close_twice P hr _ _ _ HP I0).
Qed.

Theorem run_inv P hr es : core_ok P = true -> forall s, Inv s -> Inv (runs P hr es s).
Proof.
  intros HP. induction es as [|e t IH]; intros s I; cbn; [exact I|]. apply IH. now apply step_spec.
Qed.

Lemma runs_cases P hr es : core_ok P = true -> (exists o, runs P hr es fresh = live o) \/ runs P hr es fresh = ended.
Proof. intros HP. apply inv_cases, run_inv; [exact HP|exact inv_fresh]. Qed.

Theorem ends_clean P hr es e : core_ok P = true -> must_end P e = true -> ended_clean (fst (step P hr e (runs P hr es fresh))).
Proof. intros HP Hm. apply ended_clean_iff, step_spec; [exact HP|apply inv_cases, runs_cases, HP|exact Hm]. Qed.

(* F6: when serve does not close on an EOFError escaping _dispatch, a side that meets the failure while serving a callback
   during AsyncResult.wait stays open with its hook never run *)
Theorem dispatch_eof_refuted P hr : serve_dispatch_eof_closes P = false ->
  let s := fst (step P hr (EDispatchEof InWait) fresh) in closed s = false /\ hooks s = 0.
Proof. intros H. cbn. rewrite H. split; reflexivity. Qed.

(* a raising disconnect hook: unless the clearing sits in a finally, close() on a fresh side leaves it reporting closed with its
   tables and root still in place - and nothing will ever clear them (close is the identity from then on) *)
Theorem raising_hook_refuted P w : cleanup_clears_in_finally P = false -> close_checks_closed_first P = true ->
  close_sets_closed_before_io P = true -> close_cleanup_in_finally P = true ->
  let s := fst (do_close P true w fresh) in
  closed s = true /\ has_root s = true /\ forall w', do_close P true w' s = (s, RNone).
Proof.
  intros Hf Ka Kb Kc.
  assert (E : fst (do_close P true w fresh) = {| closed := true; hooks := 1; has_root := true; chan_open := false |}).
  { unfold do_close, close_tail, set_closed_flag, cleanup. rewrite Ka, Kb, Kc. cbn. now rewrite Hf. }
  rewrite E. repeat split. intros w'. now apply close_idempotent.
Qed.

(* close() is not atomic: the peer's close request served while close() itself is under way.
   With the guarded handler the closing side comes out clean and close() raises nothing of its own (only what its write or its
   hook raised); with the raw cleanup as handler the second cleanup of the same close() finds the handler table already gone:
   AttributeError out of close() on a side where nothing else went wrong *)
Theorem close_while_serving_quiet P w s : core_ok P = true -> handle_close_guarded P = true -> Inv s -> closed s = false -> w <> WErr ->
  step P false (ECloseServing w) s = (ended, RNone).
Proof.
  intros HP Hg [[o ->]| ->]%inv_cases Hc Hw; [|discriminate]. rewrite (core_ok_eta P HP), Hg.
  destruct o, w; try reflexivity; contradiction.
Qed.
Theorem close_while_serving_refuted P w : core_ok P = true -> handle_close_guarded P = false ->
  step P false (ECloseServing w) fresh = (ended, RAttr).
Proof. intros HP Hg. rewrite (core_ok_eta P HP), Hg. reflexivity. Qed.

Lemma existsb_eqb_spec x l : reflect (In x l) (existsb (Nat.eqb x) l).
Proof. apply iff_reflect. symmetry. apply existsb_eqb_in, Nat.eqb_eq. Qed.

Theorem ended_nobody_waits rc s id : closed_stream_raises_eof rc = true ->
  closed (base s) = true \/ chan_open (base s) = false -> wait_outcome rc s id <> WKeepsWaiting.
Proof.
  intros Hf H. unfold wait_outcome. rewrite Hf. destruct (existsb _ (got s)); [discriminate|].
  destruct (existsb _ (failed s)); [discriminate|].
  destruct H as [->| ->]; [|rewrite orb_true_r]; discriminate.
Qed.

Theorem ended_waits_refuted rc s id : closed_stream_raises_eof rc = false -> ~ In id (got s) -> ~ In id (failed s) -> wait_outcome rc s id = WKeepsWaiting.
Proof.
  intros Hf Hg Hx. unfold wait_outcome. rewrite Hf.
  destruct (existsb_eqb_spec id (got s)); [contradiction|]. destruct (existsb_eqb_spec id (failed s)); [contradiction|].
  now destruct (_ || _).
Qed.

Theorem issue_after_end P hr rc s id w : chan_open (base s) = false ->
  let s' := rstep P hr rc (RIssue id w) s in pend s' = pend s /\ (~ In id (got s) -> wait_outcome rc s' id = WEofError).
Proof.
  intros H. cbn. rewrite H. split; [reflexivity|]. intros Hn. unfold wait_outcome. cbn.
  destruct (existsb_eqb_spec id (got s)); [contradiction|]. now rewrite Nat.eqb_refl.
Qed.

Lemma wait_value rc s id : wait_outcome rc s id = WValue -> In id (got s).
Proof.
  unfold wait_outcome. destruct (existsb_eqb_spec id (got s)); [auto|].
  destruct (existsb _ _); [discriminate|]. destruct (_ || _); [destruct (closed_stream_raises_eof rc)|]; discriminate.
Qed.
(* [got] only grows by RReply *)
Lemma got_runs P hr rc es : forall s x, In x (got (rruns P hr rc es s)) -> In x (got s) \/ In (RReply x) es.
Proof.
  induction es as [|e t IH]; intros s x H; [now left|]. destruct (IH _ _ H) as [H'|H']; [|right; now right].
  revert H'. destruct e as [id w|id|e0]; cbn.
  - destruct (negb (chan_open (base s))); [|destruct w]; auto.
  - destruct (existsb (Nat.eqb id) (pend s)); cbn; [|auto]. intros [<-|G]; auto.
  - auto.
Qed.

Definition base_entries (es : list rentry) : list entry := fold_right (fun x acc => match x with RBase e0 => e0 :: acc | _ => acc end) [] es.
Lemma base_rruns P hr rc es : forall s, base (rruns P hr rc es s) = runs P hr (base_entries es) (base s).
Proof.
  induction es as [|x t IH]; intros s; [reflexivity|]. cbn [rruns fold_left]. change (fold_left _ t ?a) with (rruns P hr rc t a).
  rewrite IH. destruct x as [i w|i|e0]; cbn.
  - destruct (negb (chan_open (base s))); [reflexivity|]. destruct w; reflexivity.
  - destruct (existsb (Nat.eqb i) (pend s)); reflexivity.
  - reflexivity.
Qed.
Lemma base_ends P hr rc es e : core_ok P = true -> must_end P e = true ->
  base (rstep P hr rc (RBase e) (rruns P hr rc es rfresh)) = ended.
Proof. intros HP Hm. cbn [rstep base]. rewrite base_rruns. now apply ended_clean_iff, ends_clean. Qed.

Lemma base_keeps_pend P hr rc e s : cleanup_clears_callbacks rc = false -> pend (rstep P hr rc (RBase e) s) = pend s.
Proof. intros Hf. cbn [rstep pend]. rewrite Hf. now destruct (has_root _). Qed.
