From V Require Import lib.Base lib.Decimal lib.Utf8 model.Ladder model.Brine proofs.DecimalP proofs.Utf8P.
From Coq Require Import ZifyBool.
Open Scope N_scope.
(* ZifyBool's own hook, a case analysis on every boolean constraint, makes lia here 25 times slower *)
Ltac Zify.zify_post_hook ::= Z.to_euclidean_division_equations.

Lemma pyval_ind' (Q : pyval -> Prop) :
  Q PNone -> Q PNotImpl -> Q PEllipsis -> (forall b, Q (PBool b)) -> (forall z, Q (PInt z)) ->
  (forall b, Q (PFloat b)) -> (forall b, Q (PComplex b)) -> (forall b, Q (PBytes b)) -> (forall c, Q (PStr c)) ->
  (forall l, Forall Q l -> Q (PTuple l)) -> (forall l, Forall Q l -> Q (PFset l)) ->
  (forall a b c, Q a -> Q b -> Q c -> Q (PSlice a b c)) -> (forall k, Q (POther k)) ->
  forall v, Q v.
Proof.
  intros H1 H2 H3 H4 H5 H6 H7 H8 H9 HT HF HS HO. fix IH 1.
  intros [| | |b|z|b|b|b|c|l|l|a b c|k];
    [exact H1|exact H2|exact H3|apply H4|apply H5|apply H6|apply H7|apply H8|apply H9| | |apply HS; apply IH|apply HO].
  - apply HT. induction l as [|y ys IHl]; constructor; [apply IH|exact IHl].
  - apply HF. induction l as [|y ys IHl]; constructor; [apply IH|exact IHl].
Qed.

(* what the universe of Python values / the property text allows; counts fit four bytes: an integer's digits and sign
   ([LIM - 1]), four bytes per code point *)
Definition LIM : N := 4294967296.
Fixpoint wf (P : bparams) (v : pyval) : bool :=
  match v with
  | PInt z => is_imm z || (negb (over_limit (maxdigits P) (ndigits z)) && (ndigits z <? LIM - 1))
  | PFloat b => nlen b =? 8
  | PComplex b => nlen b =? 16
  | PBytes b => nlen b <? LIM
  | PStr cps => forallb (fun c => c <? 0x110000) cps && (4 * nlen cps <? LIM)
  | PTuple l | PFset l => (nlen l <? LIM) && forallb (wf P) l
  | PSlice a b c => wf P a && wf P b && wf P c
  | _ => true
  end.
Fixpoint nosurr (v : pyval) : bool :=
  match v with
  | PStr cps => forallb (fun c => negb (is_surrogate c)) cps
  | PTuple l | PFset l => forallb nosurr l
  | PSlice a b c => nosurr a && nosurr b && nosurr c
  | _ => true
  end.
Definition text_ok (P : bparams) (v : pyval) : bool := sp P || nosurr v.

(* levels of [load_f]: text is a tag over bytes, a frozenset or slice a tag over a tuple *)
Fixpoint depth (v : pyval) : nat :=
  match v with
  | PStr _ => 2
  | PTuple l => S (fold_right (fun y m => Nat.max (depth y) m) O l)
  | PFset l => S (S (fold_right (fun y m => Nat.max (depth y) m) O l))
  | PSlice a b c => S (S (Nat.max (depth a) (Nat.max (depth b) (depth c))))
  | _ => 1
  end.

Lemma wf_tuple P l : nlen l < LIM -> Forall (fun v => wf P v = true) l -> wf P (PTuple l) = true.
Proof.
  intros H F. cbn [wf]. apply andb_true_intro. split; [now apply N.ltb_lt|]. apply forallb_forall. now apply Forall_forall.
Qed.
Lemma wf_int_size P z n : N.size (Z.abs_N z) <= n -> 0 < n -> over_limit (maxdigits P) n = false -> n < LIM - 1 ->
  wf P (PInt z) = true.
Proof.
  intros Hz H0 Ho Hn. pose proof (ndigits_size z). cbn [wf]. unfold over_limit, LIM in *. apply orb_true_iff. right. lia.
Qed.

Lemma text_ok_list P l : text_ok P (PTuple l) = true -> forallb (text_ok P) l = true.
Proof.
  unfold text_ok. destruct (sp P); cbn [orb nosurr]; [intros _; induction l; cbn; auto|]. auto.
Qed.
Lemma text_ok_slice P a b c : text_ok P (PSlice a b c) = true ->
  text_ok P a = true /\ text_ok P b = true /\ text_ok P c = true.
Proof.
  unfold text_ok. destruct (sp P); cbn [orb nosurr]; [auto|]. intros H.
  apply andb_true_iff in H as [H Hc]. apply andb_true_iff in H as [Ha Hb]. auto.
Qed.

Lemma max_le_fold (l : list pyval) (g : pyval -> nat) y : In y l -> (g y <= fold_right (fun y m => Nat.max (g y) m) O l)%nat.
Proof. induction l as [|x xs IH]; cbn; [tauto|]. intros [->|H]; [lia|specialize (IH H); lia]. Qed.

Definition reads (rec : list byte -> result (pyval * list byte)) (y : pyval) (b : list byte) : Prop :=
  b <> [] /\ forall rest, rec (b ++ rest) = Ok (y, rest).

Inductive kind := KStr | KTup | KInt.
Definition hdr_of (k : kind) : N -> result (list byte) :=
  match k with KStr => hdr_str | KTup => hdr_tup | KInt => hdr_int end.
Definition tag_L1 (k : kind) : byte := match k with KStr => TAG_STR_L1 | KTup => TAG_TUP_L1 | KInt => TAG_INT_L1 end.
Definition tag_L4 (k : kind) : byte := match k with KStr => TAG_STR_L4 | KTup => TAG_TUP_L4 | KInt => TAG_INT_L4 end.
Definition body_of P rec (k : kind) : N -> list byte -> result (pyval * list byte) :=
  match k with KStr => bytes_of | KTup => tup_of rec | KInt => int_of P end.

Inductive count_hdr (k : kind) (n : N) : list byte -> Prop :=
| H_short h : n < LIM -> hdr_of k n = Ok h -> count_hdr k n h
| H_L1 : n < 256 -> count_hdr k n [tag_L1 k; b_of n]
| H_L4 : n < LIM -> count_hdr k n (tag_L4 k :: be4 n).

Lemma take_upto_0 r : take_upto 0 r = ([], r).
Proof. unfold take_upto. destruct r; reflexivity. Qed.
Lemma with_I1_b_of n r k : n < 256 -> with_I1 (b_of n :: r) k = k n r.
Proof. intros H. cbn [with_I1]. now rewrite to_b_of. Qed.
Lemma with_I4_be4 n r k : n < LIM -> with_I4 (be4 n ++ r) k = k n r.
Proof. intros H. cbn [with_I4 be4 app]. now rewrite un4_be4. Qed.

(* the ladders' tags are numbers: evaluate them to bytes *)
Ltac norm_tags :=
  repeat match goal with
  | |- context [b_of (Npos ?p)] =>
      let v := eval vm_compute in (b_of (Npos p)) in change (b_of (Npos p)) with v
  end.
(* the seven length classes of the ladders *)
Ltac ladder_cases n :=
  destruct (N.eqb_spec n 0) as [?|?]; [subst|
  destruct (N.eqb_spec n 1) as [?|?]; [subst|
  destruct (N.eqb_spec n 2) as [?|?]; [subst|
  destruct (N.eqb_spec n 3) as [?|?]; [subst|
  destruct (N.eqb_spec n 4) as [?|?]; [subst|
  destruct (N.ltb_spec n 256) as [?|?]]]]]].

Lemma hdr_ok k n : n < LIM -> exists h, hdr_of k n = Ok h /\ h <> [] /\
  forall P rec r, load_body P rec (h ++ r) = body_of P rec k n r.
Proof.
  intros Hn. unfold LIM in Hn.
  destruct k; cbn [hdr_of body_of]; unfold hdr_str, hdr_tup, hdr_int, str_ladder, tup_ladder, int_ladder, ladder_hdr,
    lcmp_holds, lfield_bytes, pack_I1, pack_I4; norm_tags.
  all: ladder_cases n; try (destruct (N.ltb_spec n 4294967296); [|lia]); cbn [bind];
    (eexists; split; [reflexivity|split; [discriminate|intros P rec r]]).
  (* [reflexivity]: the 14 tags carrying the count; [take_upto_0]: empty bytes; the rest: count in a field *)
  all: first [reflexivity | unfold bytes_of; now rewrite take_upto_0 | now apply with_I1_b_of | now apply with_I4_be4].
Qed.

Lemma count_hdr_ok k n h : count_hdr k n h -> h <> [] /\ forall P rec r, load_body P rec (h ++ r) = body_of P rec k n r.
Proof.
  intros [h' Hn E|Hn|Hn].
  - destruct (hdr_ok k n Hn) as (h'' & E' & H). rewrite E in E'. now injection E' as <-.
  - split; [discriminate|]. intros P rec r. destruct k; now apply with_I1_b_of.
  - split; [discriminate|]. intros P rec r. destruct k; now apply with_I4_be4.
Qed.

Section Reads.
Variable P : bparams.
Variable rec : list byte -> result (pyval * list byte).

Lemma bytes_of_app (b rest : list byte) : bytes_of (nlen b) (b ++ rest) = Ok (PBytes b, rest).
Proof. unfold bytes_of. now rewrite take_upto_app. Qed.
Lemma int_of_app z t : render (maxdigits P) z = Ok t -> forall rest, int_of P (nlen t) (t ++ rest) = Ok (PInt z, rest).
Proof. intros H rest. unfold int_of. now rewrite take_upto_app, (parse_render _ _ _ H). Qed.

Lemma items_app l bss : Forall2 (reads rec) l bss ->
  (length l <= length (concat bss))%nat /\
  forall k acc rest, (length l <= k)%nat -> items rec k (nlen l) (concat bss ++ rest) acc = Ok (rev acc ++ l, rest).
Proof.
  induction 1 as [|y b ys bs [Nb Hb] _ [Hl IH]]; cbn [concat length].
  - split; [lia|]. intros k acc rest _. destruct k; cbn; now rewrite app_nil_r.
  - split; [rewrite app_length; destruct b; [congruence|cbn [length]; lia]|].
    intros [|k] acc rest Hk; [lia|]. cbn [items].
    replace (nlen (y :: ys) =? 0) with false by (unfold nlen; cbn [length]; lia).
    rewrite <- app_assoc, Hb. cbn [bind].
    replace (nlen (y :: ys) - 1) with (nlen ys) by (unfold nlen; cbn [length]; lia).
    rewrite IH by lia. cbn [rev]. now rewrite <- app_assoc.
Qed.
(* [tup_of]'s fuel, one unit per byte, covers the items: none is empty *)
Lemma tup_of_app l bss : Forall2 (reads rec) l bss -> forall rest, tup_of rec (nlen l) (concat bss ++ rest) = Ok (PTuple l, rest).
Proof.
  intros H rest. destruct (items_app l bss H) as [Hl Hi]. unfold tup_of.
  rewrite Hi by (rewrite app_length; lia). reflexivity.
Qed.

Lemma reads_counted k n h body v : count_hdr k n h -> (forall rest, body_of P rec k n (body ++ rest) = Ok (v, rest)) ->
  reads (load_body P rec) v (h ++ body).
Proof.
  intros Hh Hb. destruct (count_hdr_ok k n h Hh) as [Nh Eh]. split.
  - intros E. now apply app_eq_nil in E.
  - intros rest. now rewrite <- app_assoc, Eh.
Qed.
Lemma reads_imm z : is_imm z = true -> reads (load_body P rec) (PInt z) [b_of (Z.to_N (z + IMM_OFF))].
Proof.
  unfold is_imm, IMM_LO, IMM_HI, IMM_OFF. intros Hz. split; [discriminate|]. intros rest. cbn [app]. unfold load_body.
  rewrite to_b_of by lia. replace ((32 <=? Z.to_N (z + 80)) && (Z.to_N (z + 80) <? 240)) with true by lia.
  do 3 f_equal. unfold IMM_OFF. lia.
Qed.
Lemma reads_float (b : list byte) : nlen b = 8 -> reads (load_body P rec) (PFloat b) (TAG_FLOAT :: b).
Proof. intros H. split; [discriminate|]. intros rest. cbn. now rewrite <- H, take_upto_app, N.eqb_refl. Qed.
Lemma reads_complex (b : list byte) : nlen b = 16 -> reads (load_body P rec) (PComplex b) (TAG_COMPLEX :: b).
Proof. intros H. split; [discriminate|]. intros rest. cbn. now rewrite <- H, take_upto_app, N.eqb_refl. Qed.
Lemma reads_text cps e enc : utf8_encode (sp P) cps = Ok e -> reads rec (PBytes e) enc ->
  reads (load_body P rec) (PStr cps) (TAG_UNICODE :: enc).
Proof. intros He [_ Hr]. split; [discriminate|]. intros rest. cbn. rewrite Hr. cbn [bind]. now rewrite (utf8_roundtrip _ _ _ He). Qed.
Lemma reads_fset l t : reads rec (PTuple l) t -> reads (load_body P rec) (PFset l) (TAG_FSET :: t).
Proof. intros [_ Hr]. split; [discriminate|]. intros rest. cbn. now rewrite Hr. Qed.
Lemma reads_slice a b c t : reads rec (PTuple [a; b; c]) t -> reads (load_body P rec) (PSlice a b c) (TAG_SLICE :: t).
Proof. intros [_ Hr]. split; [discriminate|]. intros rest. cbn. now rewrite Hr. Qed.
End Reads.

Definition rt_at (P : bparams) (f : nat) (y : pyval) : Prop :=
  exists bs, dump P y = Ok bs /\ bs <> [] /\ forall rest, load_f P f (bs ++ rest) = Ok (y, rest).

(* [rt_at P f y] is [exists bs, dump P y = Ok bs /\ reads (load_f P f) y bs] *)
Lemma rt_at_dump P f y bs : rt_at P f y -> dump P y = Ok bs -> reads (load_f P f) y bs.
Proof. intros (bs' & E' & R) E. rewrite E in E'. now injection E' as <-. Qed.

Lemma dump_items_eq P l : (fix go (l : list pyval) : result (list byte) :=
      match l with [] => Ok [] | y :: ys => do a <- dump P y; do b <- go ys; Ok (a ++ b) end) l = dump_items P l.
Proof. induction l as [|y ys IH]; cbn [dump_items]; [reflexivity|]. now rewrite IH. Qed.

Lemma dump_fset P l : dump P (PFset l) = do t <- dump P (PTuple l); Ok (TAG_FSET :: t).
Proof.
  cbn [dump]. destruct (hdr_tup (nlen l)); cbn [bind]; try reflexivity.
  rewrite dump_items_eq. now destruct (dump_items P l).
Qed.
Lemma dump_slice P a b c : dump P (PSlice a b c) = do t <- dump P (PTuple [a; b; c]); Ok (TAG_SLICE :: t).
Proof.
  cbn [dump]. change (hdr_tup (nlen [a; b; c])) with (Ok [TAG_TUP3]). cbn [bind].
  destruct (dump P a); cbn [bind]; try reflexivity. destruct (dump P b); cbn [bind]; try reflexivity.
  destruct (dump P c); cbn [bind]; try reflexivity. now rewrite app_nil_r.
Qed.

Lemma rt_counted P rec k n body v : n < LIM -> (forall rest, body_of P rec k n (body ++ rest) = Ok (v, rest)) ->
  exists h, hdr_of k n = Ok h /\ reads (load_body P rec) v (h ++ body).
Proof.
  intros Hn Hb. destruct (hdr_ok k n Hn) as (h & Eh & _). exists h. split; [exact Eh|].
  apply (reads_counted P rec k n); [now apply H_short|exact Hb].
Qed.

Lemma rt_items P f l : Forall (rt_at P f) l ->
  exists bss, dump_items P l = Ok (concat bss) /\ Forall2 (reads (load_f P f)) l bss.
Proof.
  induction 1 as [|y ys (b & Eb & Hb) _ (bss & Es & Hs)]; [exists []; split; [reflexivity|constructor]|].
  exists (b :: bss). cbn [dump_items concat]. rewrite Eb, Es. split; [reflexivity|]. now constructor.
Qed.
Lemma rt_tuple P f l : nlen l < LIM -> Forall (rt_at P f) l -> rt_at P (S f) (PTuple l).
Proof.
  intros Hn HF. destruct (rt_items P f l HF) as (bss & Eb & Hb).
  destruct (rt_counted P (load_f P f) KTup (nlen l) (concat bss) (PTuple l) Hn) as (h & Eh & Hr).
  { now apply tup_of_app. }
  exists (h ++ concat bss). cbn [dump]. cbn [hdr_of] in Eh. rewrite Eh, dump_items_eq, Eb. split; [reflexivity|exact Hr].
Qed.

Theorem roundtrip_rt P : forall v, wf P v = true -> dumpable v = true -> text_ok P v = true ->
  forall f, (depth v <= f)%nat -> rt_at P f v.
Proof.
  assert (children : forall l f, Forall (fun v => wf P v = true -> dumpable v = true -> text_ok P v = true ->
              forall f, (depth v <= f)%nat -> rt_at P f v) l ->
            forallb (wf P) l = true -> forallb dumpable l = true -> text_ok P (PTuple l) = true ->
            (fold_right (fun y m => Nat.max (depth y) m) O l <= f)%nat -> Forall (rt_at P f) l).
  { intros l f IH Hw Hd Ht Hf. apply text_ok_list in Ht. rewrite forallb_forall in Hw, Hd, Ht. rewrite Forall_forall in *.
    intros y Hy. pose proof (max_le_fold l depth y Hy). apply IH; auto. lia. }
  induction v as [| | |b|z|b|b|b|cps|l IH|l IH|a b c IHa IHb IHc|k] using pyval_ind';
    intros Hwf Hd Ht f Hf; cbn [depth] in Hf; try discriminate; (destruct f as [|f]; [lia|]); cbn [wf] in Hwf; unfold rt_at.
  - eexists; split; [reflexivity|split; [discriminate|reflexivity]].
  - eexists; split; [reflexivity|split; [discriminate|reflexivity]].
  - eexists; split; [reflexivity|split; [discriminate|reflexivity]].
  - destruct b; (eexists; split; [reflexivity|split; [discriminate|reflexivity]]).
  - (* int *)
    cbn [dump]. unfold dump_int. destruct (is_imm z) eqn:Ei.
    + eexists; split; [reflexivity|]. now apply reads_imm.
    + cbn [orb] in Hwf. apply andb_true_iff in Hwf as [Hl Hs]. apply negb_true_iff in Hl.
      assert (Hr : render (maxdigits P) z = Ok (render_raw z)) by (unfold render; now rewrite Hl).
      destruct (rt_counted P (load_f P f) KInt (nlen (render_raw z)) (render_raw z) (PInt z)) as (h & Eh & R).
      { pose proof (render_raw_length z). unfold LIM in *. lia. }
      { now apply int_of_app. }
      cbn [hdr_of] in Eh. rewrite Hr. cbn [bind]. rewrite Eh. now eexists.
  - eexists; split; [reflexivity|]. apply reads_float. now apply N.eqb_eq.
  - eexists; split; [reflexivity|]. apply reads_complex. now apply N.eqb_eq.
  - (* bytes *) apply N.ltb_lt in Hwf.
    destruct (rt_counted P (load_f P f) KStr (nlen b) b (PBytes b) Hwf (bytes_of_app b)) as (h & Eh & R).
    cbn [hdr_of] in Eh. cbn [dump]. unfold dump_bytes. rewrite Eh. now eexists.
  - (* text: UTF-8, then as bytes *)
    apply andb_true_iff in Hwf as [Hc Hl]. unfold text_ok in Ht. cbn [nosurr] in Ht.
    destruct (encode_ok (sp P) cps) as (e & Ee).
    { apply forallb_forall. intros c Hin. unfold cp_ok. rewrite (proj1 (forallb_forall _ _) Hc c Hin).
      destruct (sp P); [now rewrite andb_false_r|]. cbn [orb] in Ht.
      pose proof (proj1 (forallb_forall _ _) Ht c Hin) as Hs. apply negb_true_iff in Hs. now rewrite Hs. }
    destruct f as [|f]; [lia|].
    destruct (rt_counted P (load_f P f) KStr (nlen e) e (PBytes e)) as (h & Eh & R); [|apply bytes_of_app|].
    { apply encode_length in Ee. apply N.ltb_lt in Hl. lia. }
    cbn [hdr_of] in Eh. cbn [dump]. rewrite Ee. cbn [bind]. unfold dump_bytes. rewrite Eh. cbn [bind].
    eexists; split; [reflexivity|]. exact (reads_text P _ cps e _ Ee R).
  - (* tuple *) apply andb_true_iff in Hwf as [Hn Hw]. apply N.ltb_lt in Hn.
    apply rt_tuple; [exact Hn|]. apply children; auto. lia.
  - (* frozenset *) apply andb_true_iff in Hwf as [Hn Hw]. apply N.ltb_lt in Hn. destruct f as [|f]; [lia|].
    destruct (rt_tuple P f l Hn) as (t & Et & R); [apply children; auto; lia|].
    rewrite dump_fset. rewrite Et. eexists; split; [reflexivity|]. now apply reads_fset.
  - (* slice *) apply andb_true_iff in Hwf as [Hwf Hwc]. apply andb_true_iff in Hwf as [Hwa Hwb].
    cbn [dumpable] in Hd. apply andb_true_iff in Hd as [Hd Hdc]. apply andb_true_iff in Hd as [Hda Hdb].
    apply text_ok_slice in Ht as (Hta & Htb & Htc). destruct f as [|f]; [lia|].
    destruct (rt_tuple P f [a; b; c]) as (t & Et & R); [reflexivity| |].
    { repeat constructor; [apply IHa|apply IHb|apply IHc]; auto; lia. }
    rewrite dump_slice, Et. eexists; split; [reflexivity|]. now apply reads_slice.
Qed.

Corollary dump_ok P v : wf P v = true -> dumpable v = true -> text_ok P v = true -> exists bs, dump P v = Ok bs.
Proof. intros Hw Hd Ht. destruct (roundtrip_rt P v Hw Hd Ht (depth v) (le_n _)) as (bs & E & _). eauto. Qed.

Lemma undumpable_tuple P l :
  Forall (fun y => wf P y = true -> text_ok P y = true -> dumpable y = false -> dump P y = Raise TypeError) l ->
  wf P (PTuple l) = true -> text_ok P (PTuple l) = true -> forallb dumpable l = false -> dump P (PTuple l) = Raise TypeError.
Proof.
  intros IH Hw Ht Hd. cbn [wf] in Hw. apply andb_true_iff in Hw as [Hn Hw]. apply N.ltb_lt in Hn. apply text_ok_list in Ht.
  destruct (hdr_ok KTup _ Hn) as (h & Eh & _). cbn [hdr_of] in Eh. cbn [dump]. rewrite Eh, dump_items_eq. cbn [bind].
  enough (E : dump_items P l = Raise TypeError) by now rewrite E.
  clear Hn Eh. induction IH as [|y ys Hy _ IHys]; cbn [forallb] in *; [discriminate|].
  apply andb_true_iff in Hw as [Hwy Hws]. apply andb_true_iff in Ht as [Hty Hts]. cbn [dump_items].
  destruct (dumpable y) eqn:Dy.
  - destruct (dump_ok P y Hwy Dy Hty) as [a ->]. cbn [bind]. now rewrite (IHys Hws Hts Hd).
  - now rewrite (Hy Hwy Hty eq_refl).
Qed.

Theorem decision_exact P : forall v, wf P v = true -> text_ok P v = true ->
  (dumpable v = true -> exists bs, dump P v = Ok bs) /\ (dumpable v = false -> dump P v = Raise TypeError).
Proof.
  intros v Hw Ht. split; [intros Hd; now apply dump_ok|]. revert Hw Ht.
  induction v as [| | |b|z|b|b|b|cps|l IH|l IH|a b c IHa IHb IHc|k] using pyval_ind';
    intros Hw Ht Hd; cbn [dumpable] in Hd; try discriminate; try reflexivity.
  - now apply undumpable_tuple.
  - rewrite dump_fset, (undumpable_tuple P l); auto.
  - rewrite dump_slice, (undumpable_tuple P [a; b; c]); [reflexivity| | | |].
    + repeat constructor; assumption.
    + cbn [wf] in Hw. apply andb_true_iff in Hw as [Hw Hwc]. apply andb_true_iff in Hw as [Hwa Hwb].
      cbn [wf forallb]. now rewrite Hwa, Hwb, Hwc.
    + unfold text_ok in *. cbn [nosurr forallb] in *. now rewrite andb_true_r, andb_assoc.
    + cbn [forallb]. now rewrite andb_true_r, andb_assoc.
Qed.

(* F1: with the strict codec the predicate and the encoder disagree on lone surrogates *)
Theorem decision_exact_refuted P : sp P = false ->
  exists v, wf P v = true /\ dumpable v = true /\ dump P v = Raise UnicodeError.
Proof.
  intros H. exists (PStr [0xD800]). repeat split. cbn [dump utf8_encode]. unfold enc1. rewrite H. reflexivity.
Qed.

(* every level of nesting emits at least one byte *)
Lemma ladder_nonempty l n h : ladder_hdr l n = Ok h -> (1 <= length h)%nat.
Proof.
  induction l as [|[[[c k] t] f] rest IH]; cbn [ladder_hdr]; [discriminate|].
  destruct (lcmp_holds c n k); [|exact IH].
  intros E. apply bind_Ok in E as (fb & _ & [= <-]). cbn. lia.
Qed.

Lemma depth_le P : forall v bs, dump P v = Ok bs -> (depth v <= S (length bs))%nat.
Proof.
  assert (tuple : forall l bs, Forall (fun y => forall bs, dump P y = Ok bs -> (depth y <= S (length bs))%nat) l ->
            dump P (PTuple l) = Ok bs -> (depth (PTuple l) <= S (length bs))%nat).
  { intros l bs IH E. cbn [dump] in E. apply bind_Ok in E as (h & Eh & E). apply ladder_nonempty in Eh.
    rewrite dump_items_eq in E. apply bind_Ok in E as (body & Eb & [= <-]).
    rewrite app_length. cbn [depth]. enough (fold_right (fun y m => Nat.max (depth y) m) O l <= S (length body))%nat by lia.
    clear Eh. revert body Eb. induction IH as [|y ys Hy _ IHys]; intros body E; cbn [fold_right]; [lia|].
    cbn [dump_items] in E. apply bind_Ok in E as (a & Ea & E). apply bind_Ok in E as (b & Eb & [= <-]).
    specialize (Hy a Ea). specialize (IHys b Eb). rewrite app_length. lia. }
  induction v as [| | |b|z|b|b|b|cps|l IH|l IH|a b c IHa IHb IHc|k] using pyval_ind'; intros bs E; cbn [depth]; try lia.
  - cbn [dump] in E. apply bind_Ok in E as (e & _ & E). apply bind_Ok in E as (d & Ed & [= <-]).
    apply bind_Ok in Ed as (h & Eh & [= <-]). apply ladder_nonempty in Eh. cbn [length]. rewrite app_length. lia.
  - now apply tuple.
  - rewrite dump_fset in E. apply bind_Ok in E as (t & Et & [= <-]). apply (tuple l t IH) in Et. cbn [depth length] in *. lia.
  - rewrite dump_slice in E. apply bind_Ok in E as (t & Et & [= <-]).
    apply tuple in Et; [|exact (Forall_cons _ IHa (Forall_cons _ IHb (Forall_cons _ IHc (Forall_nil _))))].
    cbn [depth length fold_right] in *. lia.
Qed.

(* brine.load(brine.dump(v)) = v; load starts with one unit of fuel per byte *)
Theorem load_dump P v : wf P v = true -> dumpable v = true -> text_ok P v = true ->
  exists bs, dump P v = Ok bs /\ load P bs = Ok v.
Proof.
  intros Hw Hd Ht. destruct (dump_ok P v Hw Hd Ht) as (bs & E). exists bs. split; [exact E|].
  destruct (rt_at_dump P _ v bs (roundtrip_rt P v Hw Hd Ht _ (depth_le P v bs E)) E) as [_ H].
  unfold load. specialize (H []). rewrite app_nil_r in H. now rewrite H.
Qed.

(* Arbitrary input. [fine b m o]: a decoder with [b] levels of nesting left, on [m] bytes - a value returned is plain and
   input was consumed; out of fuel only if the input has at least [b] bytes. *)
Definition fine (b m : nat) (o : result (pyval * list byte)) : Prop :=
  match o with
  | Ok (v, r) => dumpable v = true /\ (length r < m)%nat
  | OutOfFuel => (b <= m)%nat
  | _ => True
  end.

Lemma fine_mono b m m' o : (m <= m')%nat -> fine b m o -> fine b m' o.
Proof. intros Hm. destruct o as [[v r]| | |]; cbn [fine]; [intros [D L]; split; [exact D|]|..]; auto; lia. Qed.
Lemma fine_atom b (r : list byte) v : dumpable v = true -> fine b (S (length r)) (Ok (v, r)).
Proof. intros H. split; [exact H|apply Nat.lt_succ_diag_r]. Qed.
Lemma take_upto_len n (bs a b : list byte) : take_upto n bs = (a, b) -> (length b <= length bs)%nat.
Proof.
  unfold take_upto. destruct (nlen bs <=? n)%N; intros [= <- <-]; [cbn; lia|]. rewrite skipn_length. lia.
Qed.
Lemma fine_bits b n mk r : (forall x, dumpable (mk x) = true) ->
  fine b (S (length r)) (let '(x, r') := take_upto n r in if nlen x =? n then Ok (mk x, r') else Raise StructError).
Proof.
  intros H. destruct (take_upto n r) as [x r'] eqn:E. apply take_upto_len in E.
  destruct (nlen x =? n); cbn [fine]; auto. split; [apply H|lia].
Qed.
Lemma iter_elems_plain s o es : dumpable o = true -> iter_elems s o = Ok es -> forallb dumpable es = true.
Proof.
  destruct o; cbn [iter_elems dumpable]; try discriminate.
  - intros _ [= <-]. induction b; cbn; auto.
  - intros _ [= <-]. induction cps; cbn; auto.
  - now intros H [= <-].
  - destruct s; [discriminate|]. now intros H [= <-].
Qed.
Lemma iter_elems_definite s o : iter_elems s o <> OutOfFuel.
Proof. destruct o; try discriminate. now destruct s. Qed.

(* one level over a [rec] that is fine at [b]; what follows the tag byte stands one byte further on *)
Section Level.
Variable P : bparams.
Variable rec : list byte -> result (pyval * list byte).
Variable b : nat.
Hypothesis rec_fine : forall bs, fine b (length bs) (rec bs).

Lemma items_fine : forall k n bs acc, forallb dumpable acc = true -> (length bs < k)%nat ->
  match items rec k n bs acc with
  | Ok (l, r) => forallb dumpable l = true /\ (length r <= length bs)%nat
  | OutOfFuel => (b <= length bs)%nat
  | _ => True
  end.
Proof.
  induction k as [|k IH]; intros n bs acc Ha Hk; [lia|]. cbn [items]. destruct (n =? 0).
  { split; [|lia]. rewrite forallb_forall in *. intros x Hx. apply Ha. now apply in_rev. }
  pose proof (rec_fine bs) as H. destruct (rec bs) as [[y r]| | |]; cbn [bind fine] in *; auto.
  destruct H as [Dy Hr]. specialize (IH (n - 1) r (y :: acc)). cbn [forallb] in IH. rewrite Dy in IH.
  specialize (IH Ha ltac:(lia)). destruct (items rec k (n - 1) r (y :: acc)) as [[l r']| | |]; auto; [|lia].
  destruct IH as [Dl Hl]. split; [exact Dl|lia].
Qed.
Lemma tup_of_fine n r : fine (S b) (S (length r)) (tup_of rec n r).
Proof.
  unfold tup_of. pose proof (items_fine (S (length r)) n r [] eq_refl (Nat.lt_succ_diag_r _)) as H.
  destruct (items rec (S (length r)) n r []) as [[l r']| | |]; cbn [bind fine]; auto; [|lia].
  destruct H as [Dl Hl]. split; [exact Dl|lia].
Qed.
Lemma bytes_of_fine n r : fine (S b) (S (length r)) (bytes_of n r).
Proof. unfold bytes_of. destruct (take_upto n r) eqn:E. apply take_upto_len in E. split; [reflexivity|lia]. Qed.
Lemma int_of_fine n r : fine (S b) (S (length r)) (int_of P n r).
Proof.
  unfold int_of. destruct (take_upto n r) as [t r'] eqn:E. apply take_upto_len in E.
  pose proof (parse_definite (maxdigits P) t). destruct (parse _ t); cbn [bind fine]; auto; [|congruence].
  split; [reflexivity|lia].
Qed.
Lemma with_I1_fine r k : (forall n r', fine (S b) (S (length r')) (k n r')) -> fine (S b) (S (length r)) (with_I1 r k).
Proof. intros H. destruct r as [|n r1]; [exact I|]. apply (fine_mono _ (S (length r1))); [cbn [length]; lia|apply H]. Qed.
Lemma with_I4_fine r k : (forall n r', fine (S b) (S (length r')) (k n r')) -> fine (S b) (S (length r)) (with_I4 r k).
Proof.
  intros H. destruct r as [|x [|y [|z [|w r1]]]]; try exact I. apply (fine_mono _ (S (length r1))); [cbn [length]; lia|apply H].
Qed.

Lemma load_body_fine t r : fine (S b) (S (length r)) (load_body P rec (t :: r)).
Proof.
  unfold load_body. destruct ((32 <=? to_N t) && (to_N t <? 240)); [now apply fine_atom|].
  (* [exact I]: 230 refused tags; [fine_atom]: 7 constants; [fine_bits]: float, complex; [*_of_fine], under [with_I*_fine]
     for a count field: 14 counted; left: the 3 wrapping what [rec] returns *)
  destruct t; try exact I; auto using fine_atom, fine_bits, bytes_of_fine, tup_of_fine, int_of_fine, with_I1_fine, with_I4_fine.
  all: pose proof (rec_fine r) as H; destruct (rec r) as [[o r']| | |]; cbn [bind fine] in *; try exact I; [|lia];
    destruct H as [D L].
  - (* text *) destruct o as [| | |?|?|?|?|e|?|?|?|? ? ?|?]; try exact I. pose proof (utf8_decode_total (sp P) e).
    destruct (utf8_decode (sp P) e); cbn [fine]; try exact I; [|congruence]. split; [reflexivity|lia].
  - (* slice *) pose proof (iter_elems_definite true o). pose proof (iter_elems_plain true o) as Hp.
    destruct (iter_elems true o) as [es| | |]; cbn [bind fine]; try exact I; [|congruence]. specialize (Hp es D eq_refl).
    destruct es as [|x [|y [|z [|w es]]]]; try exact I. cbn [forallb fine dumpable] in *.
    rewrite andb_true_r, andb_assoc in Hp. split; [exact Hp|lia].
  - (* frozenset *) pose proof (iter_elems_definite false o). pose proof (iter_elems_plain false o) as Hp.
    destruct (iter_elems false o) as [es| | |]; cbn [bind fine]; try exact I; [|congruence]. split; [exact (Hp es D eq_refl)|lia].
Qed.
End Level.

Theorem load_f_fine P : forall f bs, fine f (length bs) (load_f P f bs).
Proof.
  induction f as [|f IH]; intros bs; cbn [load_f fine]; [lia|].
  destruct bs as [|t r]; [exact I|]. now apply load_body_fine.
Qed.

Corollary load_f_plain P f bs v r : load_f P f bs = Ok (v, r) -> dumpable v = true /\ (length r < length bs)%nat.
Proof. intros E. pose proof (load_f_fine P f bs) as H. now rewrite E in H. Qed.
Corollary load_f_total P f bs : (length bs < f)%nat -> load_f P f bs <> OutOfFuel.
Proof. intros Hl E. pose proof (load_f_fine P f bs) as H. rewrite E in H. cbn [fine] in H. lia. Qed.

Theorem load_total P bs : load P bs <> OutOfFuel.
Proof.
  unfold load. pose proof (load_f_total P (S (length bs)) bs (Nat.lt_succ_diag_r _)) as H.
  now destruct (load_f P (S (length bs)) bs) as [[v r]| | |].
Qed.

Lemma items_total rec : (forall bs, rec bs <> OutOfFuel) ->
  (forall bs v r, rec bs = Ok (v, r) -> (length r < length bs)%nat) ->
  forall k n bs acc, (length bs < k)%nat -> items rec k n bs acc <> OutOfFuel.
Proof.
  intros Hr Hc. induction k as [|k IH]; intros n bs acc Hk; [lia|]. cbn [items].
  destruct (n =? 0); [discriminate|].
  destruct (rec bs) as [[y r]| | |] eqn:E; cbn [bind]; try discriminate.
  - apply IH. specialize (Hc _ _ _ E). lia.
  - now apply Hr in E.
Qed.
