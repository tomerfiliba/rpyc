(* Proofs about model/Vinegar.v: fidelity of built-in exceptions, gating of custom classes, safety of the loader on any
   payload, the StopIteration fast path, disclosure.  [vload_unpacked] reduces a payload to an early exit or to [load_class];
   the round trips evaluate [load_class], [load_class_ok] bounds it, and the safety theorems are read off [vload_ok]. *)
From V Require Import lib.Base model.Brine model.Vinegar proofs.BrineP.
From Coq Require Import String.
Open Scope N_scope.

Lemma text_eqb_refl a : text_eqb a a = true.
Proof. induction a as [|x a IH]; cbn; [reflexivity|]. now rewrite N.eqb_refl, IH. Qed.
Lemma text_eqb_eq a : forall b, text_eqb a b = true <-> a = b.
Proof.
  induction a as [|x a IH]; intros [|y b]; cbn; split; try easy.
  - intros H. apply andb_true_iff in H as [H1 H2]. apply N.eqb_eq in H1. apply IH in H2. congruence.
  - intros [= -> ->]. now rewrite N.eqb_refl, text_eqb_refl.
Qed.
Lemma text_eqb_neq a b : text_eqb a b = false <-> a <> b.
Proof.
  split.
  - intros H E. apply text_eqb_eq in E. congruence.
  - intros H. destruct (text_eqb a b) eqn:E; [|reflexivity]. apply text_eqb_eq in E. contradiction.
Qed.

(* what the [for name in dir(val)] loop of dump yields, stated without the loop: the attribute pairs, and how often "args" occurs *)
Definition public_attrs (skipc : bool) (d : list (text * option obj)) : list (text * pyval) :=
  flat_map (fun nv => if text_eqb (fst nv) ARGS then [] else if skipped (fst nv) then []
                      else match snd nv with
                           | Some o => if skipc && o_callable o then [] else [(fst nv, norm o)]
                           | None => []
                           end) d.
Definition args_entries (d : list (text * option obj)) : nat :=
  List.length (filter (fun nv => text_eqb (fst nv) ARGS) d).

Lemma walk_dir_eq k args d :
  walk_dir k args d = (flat_map (fun _ => map norm args) (filter (fun nv => text_eqb (fst nv) ARGS) d), public_attrs k d).
Proof.
  induction d as [|[n ov] d IH]; [reflexivity|]. cbn [walk_dir public_attrs flat_map filter fst snd]. rewrite IH.
  destruct (text_eqb n ARGS); [reflexivity|]. destruct (skipped n); [reflexivity|]. destruct ov as [o|]; [|reflexivity].
  destruct (k && o_callable o); reflexivity.
Qed.
Lemma walk_dir_once k args d : args_entries d = 1%nat -> walk_dir k args d = (map norm args, public_attrs k d).
Proof.
  intros H. rewrite walk_dir_eq. f_equal.
  unfold args_entries in H. destruct (filter _ d) as [|x [|y l]]; try discriminate. cbn. apply app_nil_r.
Qed.

Lemma in_public_attrs k d na : In na (public_attrs k d) <->
  exists o, In (fst na, Some o) d /\ snd na = norm o /\
            text_eqb (fst na) ARGS = false /\ skipped (fst na) = false /\ k && o_callable o = false.
Proof.
  unfold public_attrs. rewrite in_flat_map. split.
  - intros ([n [o|]] & Hd & H); cbn [fst snd] in H;
      destruct (text_eqb n ARGS) eqn:EA, (skipped n) eqn:ES; try contradiction.
    destruct (k && o_callable o) eqn:EC; [contradiction|]. destruct H as [<-|[]]. exists o. auto.
  - intros (o & Hd & Hv & EA & ES & EC). exists (fst na, Some o). split; [exact Hd|]. cbn [fst snd].
    rewrite EA, ES, EC, <- Hv. left. now destruct na.
Qed.

(* the names that reach the wire never start with an underscore and are never "args"/ignored *)
Lemma public_attrs_names k d : Forall (fun na => skipped (fst na) = false /\ text_eqb (fst na) ARGS = false) (public_attrs k d).
Proof. apply Forall_forall. intros na H. apply in_public_attrs in H as (o & _ & _ & EA & ES & _). now split. Qed.

(* when dump leaves callables out, every pair on the wire comes from a NON-callable attribute: no method of the rebuilt
   object is shadowed by a text; when it sends them, a method's repr travels as a data attribute *)
Lemma public_attrs_not_callable d na : In na (public_attrs true d) ->
  exists o, In (fst na, Some o) d /\ o_callable o = false /\ snd na = norm o.
Proof. intros H. apply in_public_attrs in H as (o & Hd & Hv & _ & _ & EC). eauto. Qed.

Definition set_of (na : text * pyval) : pyval * pyval := (PStr (fst na), snd na).

Lemma do_sets_genuine l : do_sets (map attr_pair l) = (map set_of l, Ok tt).
Proof.
  induction l as [|[n v] l IH]; [reflexivity|]. cbn [map do_sets attr_pair fst snd].
  change (unpack 2 (PTuple [PStr n; v])) with (Ok [PStr n; v] : result (list pyval)).
  now rewrite IH.
Qed.

Lemma last_version_app l v :
  last_version (map set_of (l ++ [(REMOTE_VERSION, v)])) = Some v.
Proof.
  unfold last_version. rewrite map_app, fold_left_app. cbn [map fold_left set_of fst snd].
  now rewrite text_eqb_refl.
Qed.

Definition version_warn (fS : sflags) (E : env) (ver : text) : bool :=
  incl_ver fS && negb (text_eqb ver DENIED_VER) && negb (text_eqb (major_of ver) (local_major E)).

Lemma status_genuine fS E ver tb l :
  status_of E (map set_of (l ++ [version_attr fS ver])) (tb_field fS tb) = Done (tb_field fS tb) (version_warn fS E ver).
Proof.
  unfold status_of, version_attr. rewrite last_version_app. unfold version_warn, tb_field.
  destruct (incl_ver fS); cbn [andb negb].
  - destruct (text_eqb ver DENIED_VER); [reflexivity|]. cbn [negb andb]. destruct (text_eqb (major_of ver) (local_major E)); reflexivity.
  - now rewrite text_eqb_refl.
Qed.

Lemma build_genuine E eff rc args l fS ver tb :
  build E eff rc true (PTuple args) (PTuple (map attr_pair (l ++ [version_attr fS ver]))) (tb_field fS tb) =
  (eff ++ [ENew rc], Ok (LExc rc (PTuple args) (map set_of (l ++ [version_attr fS ver]))
                               (Done (tb_field fS tb) (version_warn fS E ver)))).
Proof.
  unfold build. cbn [negb iter_elems]. rewrite do_sets_genuine. now rewrite status_genuine.
Qed.

(* the tuple dump returns *)
Definition record (m n : text) (args : list pyval) (attrs : list (text * pyval)) (tb : pyval) : pyval :=
  PTuple [PTuple [PStr m; PStr n]; PTuple args; PTuple (map attr_pair attrs); tb].

Lemma vdump_slow P fS ver tb e : fast_taken P e = false -> args_entries (e_dir e) = 1%nat ->
  vdump P fS ver tb e =
  record (fst (cls_key (e_cls e))) (snd (cls_key (e_cls e))) (map norm (e_args e))
         (public_attrs (skip_callables P) (e_dir e) ++ [version_attr fS ver]) (tb_field fS tb).
Proof.
  intros HF HA. unfold vdump. rewrite HF, (walk_dir_once _ _ _ HA). destruct (cls_key (e_cls e)); reflexivity.
Qed.

Definition import_part (fR : rflags) (E : env) (modname : pyval) : list effect :=
  if eval_cond fR E (modules E) modname import_guard then match modname with PStr m => [EImport m] | _ => [] end else [].

(* reading a module attribute: the imports of a module-level __getattr__ hook (only when [hooks]: the lookup consults
   it) and the exception class found, if any *)
Definition settle (hooks : bool) (k : option attr_kind) : list text * option (clsid * bool) :=
  match k with
  | Some (AExc c ok) => ([], Some (c, ok))
  | Some (ALazy imps found) => if hooks then (imps, found) else ([], None)
  | _ => ([], None)
  end.

(* [vload] on a payload unpacked to ((modname, clsname), args, attrs, tb): guarded import, ladder, imports of a
   consulted hook, one object of the class found or of a generic stand-in *)
Definition load_class (M : lookup_mode) (fR : rflags) (E : env) (modname clsname args attrs tb : pyval) : list effect * result lres :=
  let eff := import_part fR E modname in
  let mods := if eval_cond fR E (modules E) modname import_guard then after_import E modname else modules E in
  match run_prog M fR E mods modname clsname resolution_prog with
  | Ok k =>
      let eff' := eff ++ map EImport (fst (settle true k)) in
      match snd (settle true k) with
      | Some (c, ok) => build E eff' (Real c) ok args attrs tb
      | None => generic_or_fail E eff' modname clsname args attrs tb
      end
  | Raise e => (eff, Raise e)
  | OutOfFuel => (eff, OutOfFuel)
  | Unmodelled => (eff, Unmodelled)
  end.

(* load raises TypeError / ValueError / UnicodeError before an object exists, TypeError / ValueError / AttributeError while
   filling it in; StopIteration comes from the fast path only *)
Definition failure_ok (r : result lres) : Prop :=
  match r with
  | Ok LStop => False
  | Raise e => e = TypeError \/ e = ValueError \/ e = UnicodeError
  | Ok (LExc _ _ _ (Fail e)) => e = TypeError \/ e = ValueError \/ e = AttributeError
  | _ => True
  end.

Lemma vload_stop M fR E v : py_eq_one v = true -> vload M fR E v = ([], Ok LStop).
Proof. intros H. unfold vload. now rewrite H. Qed.

Lemma iter_elems_raise b v e : iter_elems b v = Raise e -> e = TypeError.
Proof. destruct v; cbn; try discriminate; try (now intros [= <-]). destruct b; discriminate. Qed.
Lemma unpack_raise n v e : unpack n v = Raise e -> e = TypeError \/ e = ValueError.
Proof.
  unfold unpack. destruct (iter_elems true v) as [es| | |] eqn:EI; cbn [bind]; try discriminate.
  - destruct (Nat.eqb _ _); [discriminate|]. intros [= <-]. now right.
  - intros [= <-]. left. now apply iter_elems_raise in EI.
Qed.

(* a payload that does not unpack: wrong length, or the failure of the iteration *)
Definition unpack_failed (r : result (list pyval)) : list effect * result lres :=
  ([], match r with Ok _ => Raise ValueError | Raise e => Raise e | OutOfFuel => OutOfFuel | Unmodelled => Unmodelled end).

(* [vload] past its two early tests.  A str is returned as it is before any unpacking (it would unpack, like a tuple of its
   characters): hence the side condition *)
Lemma vload_unpacked M fR E v : py_eq_one v = false -> (forall s, v <> PStr s) ->
  vload M fR E v =
  match unpack 4 v with
  | Ok [key; args; attrs; tb] =>
      match unpack 2 key with
      | Ok [modname; clsname] => load_class M fR E modname clsname args attrs tb
      | r => unpack_failed r
      end
  | r => unpack_failed r
  end.
Proof.
  intros H NS.
  assert (S : forall (f : text -> list effect * result lres) b, match v with PStr s => f s | _ => b end = b).
  { intros f b. destruct v; try reflexivity. now elim (NS _ eq_refl). }
  unfold vload. rewrite S, H.
  destruct (unpack 4 v) as [[|key [|args [|attrs [|tb [|? ?]]]]]| | |]; try reflexivity.
  destruct (unpack 2 key) as [[|modname [|clsname [|? ?]]]| | |]; try reflexivity.
  unfold load_class. fold (import_part fR E modname).
  now destruct (run_prog _ _ _ _ _ _ _) as [[[| |? [[]|]]|]| | |]; cbn [settle fst snd map]; rewrite ?app_nil_r.
Qed.

Lemma vload_record M fR E modname clsname args attrs tb :
  vload M fR E (PTuple [PTuple [modname; clsname]; args; attrs; tb]) = load_class M fR E modname clsname args attrs tb.
Proof. now apply vload_unpacked. Qed.

Lemma run_ladder M fR E mods modname clsname :
  run_prog M fR E mods modname clsname resolution_prog =
  if inst_custom fR then
    if in_modules E mods modname
    then getattr_ns clsname (hooks_run M fR) (hooks_run M fR) (match modname with PStr m => find_module E mods m | _ => None end)
    else Ok None
  else if match modname with PStr m => text_eqb m BUILTINS | _ => false end
       then getattr_ns clsname true false (Some (builtins_ns E)) else Ok None.
Proof. reflexivity. Qed.

Lemma getattr_ns_found clsname strict hooks n k : getattr_ns clsname strict hooks n = Ok (Some k) ->
  exists c x, n = Some x /\ assoc c x = Some k /\ forall imps f, k = ALazy imps f -> hooks = true.
Proof.
  unfold getattr_ns. destruct clsname as [| | | | | | | |c| | | |]; try (destruct strict; discriminate).
  destruct n as [x|]; [|discriminate]. intros [= H]. exists c, x. split; [reflexivity|].
  destruct (assoc c x) as [[c' ok| |imps f]|]; cbn [visible] in H.
  - injection H as <-. split; [reflexivity|discriminate].
  - injection H as <-. split; [reflexivity|discriminate].
  - destruct hooks; [|discriminate]. injection H as <-. auto.
  - discriminate.
Qed.
Lemma run_prog_raise M fR E mods modname clsname e :
  run_prog M fR E mods modname clsname resolution_prog = Raise e -> e = TypeError.
Proof.
  assert (G : forall strict hooks n, getattr_ns clsname strict hooks n = Raise e -> e = TypeError).
  { unfold getattr_ns. intros [] hooks n; destruct clsname; try discriminate; now intros [= <-]. }
  rewrite run_ladder.
  destruct (inst_custom fR), (in_modules E mods modname), (match modname with PStr m => text_eqb m BUILTINS | _ => false end);
    try discriminate; apply G.
Qed.

Lemma builtins_in_modules E mods : in_modules E mods (PStr BUILTINS) = true.
Proof. reflexivity. Qed.
Lemma import_part_builtins fR E : import_part fR E (PStr BUILTINS) = [].
Proof. unfold import_part, import_guard. cbn [eval_cond]. now rewrite builtins_in_modules, andb_false_r. Qed.
(* the ladder finds a class of the builtins module under every setting of the receiver switches *)
Lemma resolve_builtin M fR E mods n c ok : assoc n (builtins_ns E) = Some (AExc c ok) ->
  run_prog M fR E mods (PStr BUILTINS) (PStr n) resolution_prog = Ok (Some (AExc c ok)).
Proof.
  intros H. rewrite run_ladder, builtins_in_modules. change (text_eqb BUILTINS BUILTINS) with true. cbv iota.
  change (find_module E mods BUILTINS) with (Some (builtins_ns E)). unfold getattr_ns. rewrite H. now destruct (inst_custom fR).
Qed.

Theorem builtin_fidelity_slow M P fS fR E ver tb e n :
  e_cls e = Builtin n -> args_entries (e_dir e) = 1%nat ->
  assoc n (builtins_ns E) = Some (AExc (Builtin n) true) ->
  fast_taken P e = false ->
  vload M fR E (vdump P fS ver tb e) =
    ([ENew (Real (Builtin n))],
     Ok (LExc (Real (Builtin n)) (PTuple (map norm (e_args e)))
              (map set_of (public_attrs (skip_callables P) (e_dir e) ++ [version_attr fS ver]))
              (Done (tb_field fS tb) (version_warn fS E ver)))).
Proof.
  intros HC HA HB HF. rewrite (vdump_slow _ _ _ _ _ HF HA), HC. cbn [cls_key fst snd]. unfold record. rewrite vload_record.
  unfold load_class. rewrite import_part_builtins, (resolve_builtin M fR E _ n _ _ HB). apply build_genuine.
Qed.

(* what arrives, abstracted to (class, args) *)
Definition arrived (r : list effect * result lres) : option (clsid * pyval) :=
  match snd r with
  | Ok LStop => Some (Builtin STOP_ITERATION, PTuple [])
  | Ok (LExc (Real c) a _ (Done _ _)) => Some (c, a)
  | _ => None
  end.

Lemma fast_taken_inv P e : fast_taken P e = true ->
  e_cls e = Builtin STOP_ITERATION /\ (fast_noargs_only P = true -> e_args e = []).
Proof.
  unfold fast_taken, is_builtin_named, no_args. intros H. apply andb_true_iff in H as [H1 H2].
  destruct (e_cls e) as [n|m n]; [|discriminate]. apply text_eqb_eq in H1. subst n. split; [reflexivity|].
  intros HP. rewrite HP in H2. cbn in H2. now destruct (e_args e).
Qed.

(* on a tree whose fast path is guarded by "no args": class and args of every built-in arrive intact *)
Theorem builtin_class_args_preserved M P fS fR E ver tb e n :
  fast_noargs_only P = true ->
  e_cls e = Builtin n -> args_entries (e_dir e) = 1%nat ->
  assoc n (builtins_ns E) = Some (AExc (Builtin n) true) ->
  arrived (vload M fR E (vdump P fS ver tb e)) = Some (Builtin n, PTuple (map norm (e_args e))).
Proof.
  intros HP HC HA HB. destruct (fast_taken P e) eqn:HF.
  - destruct (fast_taken_inv _ _ HF) as [HS HN]. specialize (HN HP). unfold vdump. rewrite HF, vload_stop by reflexivity.
    rewrite HC in HS. injection HS as ->. now rewrite HN.
  - now rewrite (builtin_fidelity_slow M P fS fR E ver tb e n HC HA HB HF).
Qed.

(* on a tree whose fast path is unconditional the arguments of StopIteration are lost (finding F9) *)
Definition stop_x : exc :=
  {| e_cls := Builtin STOP_ITERATION;
     e_args := [{| o_val := PStr (txt "x"); o_repr := txt "'x'"; o_callable := false |}];
     e_dir := [(ARGS, None); (txt "value", Some {| o_val := PStr (txt "x"); o_repr := txt "'x'"; o_callable := false |})] |}.
Theorem builtin_fidelity_refuted M P fS fR E ver tb : fast_noargs_only P = false ->
  args_entries (e_dir stop_x) = 1%nat /\ routed fS (e_cls stop_x) = false /\
  map norm (e_args stop_x) = [PStr (txt "x")] /\
  arrived (vload M fR E (vdump P fS ver tb stop_x)) = Some (Builtin STOP_ITERATION, PTuple []).
Proof.
  intros HP. repeat split.
  unfold vdump, fast_taken. rewrite HP. cbn [stop_x e_cls is_builtin_named]. rewrite text_eqb_refl. cbn [andb negb orb].
  now rewrite vload_stop.
Qed.

Definition present (fR : rflags) (E : env) (m : text) : option ns :=
  match assoc m (modules E) with
  | Some x => Some x
  | None => if import_custom fR then assoc m (importable E) else None
  end.
Definition lookup_custom (M : lookup_mode) (fR : rflags) (E : env) (m n : text) : list text * option (clsid * bool) :=
  if inst_custom fR then
    match present fR E m with
    | Some x => settle (hooks_run M fR) (assoc n x)
    | None => ([], None)
    end
  else ([], None).
Definition expected_class (M : lookup_mode) (fR : rflags) (E : env) (m n : text) : rcls * bool :=
  match snd (lookup_custom M fR E m n) with
  | Some (c, ok) => (Real c, ok)
  | None => (Generic (PStr m) (PStr n), true)
  end.
Definition guard_import (fR : rflags) (E : env) (m : text) : list effect :=
  if import_custom fR then match assoc m (modules E) with None => [EImport m] | Some _ => [] end else [].
Definition import_effects (M : lookup_mode) (fR : rflags) (E : env) (m n : text) : list effect :=
  guard_import fR E m ++ map EImport (fst (lookup_custom M fR E m n)).

Lemma find_module_custom E mods m : text_eqb m BUILTINS = false -> find_module E mods m = assoc m mods.
Proof. intros H. unfold find_module. now rewrite H. Qed.

Lemma settle_visible h k : settle true (visible h k) = settle h k.
Proof. destruct k as [[c ok| |imps f]|]; try reflexivity. cbn. destruct h; reflexivity. Qed.

Lemma assoc_after_import fR E m : text_eqb m BUILTINS = false ->
  assoc m (if eval_cond fR E (modules E) (PStr m) import_guard then after_import E (PStr m) else modules E) = present fR E m.
Proof.
  intros HM. unfold import_guard, present, after_import. cbn [eval_cond in_modules]. rewrite (find_module_custom _ _ _ HM).
  destruct (import_custom fR), (assoc m (modules E)) as [x|] eqn:EM; cbn [andb negb]; rewrite ?EM; try reflexivity.
  destruct (assoc m (importable E)); cbn [assoc]; now rewrite ?text_eqb_refl.
Qed.
Lemma custom_resolution M fR E m n : text_eqb m BUILTINS = false ->
  import_part fR E (PStr m) = guard_import fR E m /\
  exists k, run_prog M fR E (if eval_cond fR E (modules E) (PStr m) import_guard then after_import E (PStr m) else modules E)
                     (PStr m) (PStr n) resolution_prog = Ok k /\ lookup_custom M fR E m n = settle true k.
Proof.
  intros HM. split.
  - unfold import_part, import_guard, guard_import. cbn [eval_cond in_modules]. rewrite (find_module_custom _ _ _ HM).
    now destruct (import_custom fR), (assoc m (modules E)).
  - rewrite run_ladder. unfold in_modules, lookup_custom, getattr_ns.
    rewrite (find_module_custom _ _ _ HM), (assoc_after_import _ _ _ HM), HM.
    destruct (inst_custom fR), (present fR E m); eexists; (split; [reflexivity|]); now rewrite ?settle_visible.
Qed.

Definition name_ok (m n : text) : Prop := generic_name_check (PStr m) (PStr n) = Ok tt.

(* a genuine record of a class outside builtins: the real class exactly when switches and modules allow it, a generic
   stand-in named "m.n" otherwise; effects: the guarded import, the imports of a consulted hook, one __new__ *)
Theorem custom_gating M fR E m n args l fS ver tb :
  text_eqb m BUILTINS = false -> name_ok m n -> snd (expected_class M fR E m n) = true ->
  vload M fR E (record m n args (l ++ [version_attr fS ver]) (tb_field fS tb)) =
    (import_effects M fR E m n ++ [ENew (fst (expected_class M fR E m n))],
     Ok (LExc (fst (expected_class M fR E m n)) (PTuple args) (map set_of (l ++ [version_attr fS ver]))
              (Done (tb_field fS tb) (version_warn fS E ver)))).
Proof.
  intros HM HN HK. unfold record. rewrite vload_record. unfold load_class, import_effects, expected_class in *.
  destruct (custom_resolution M fR E m n HM) as (-> & k & -> & HL). rewrite <- HL.
  destruct (snd (lookup_custom M fR E m n)) as [[c ok]|]; cbn [fst snd] in *.
  - subst ok. apply build_genuine.
  - unfold generic_or_fail. rewrite HN. apply build_genuine.
Qed.

Lemma present_some fR E m x : present fR E m = Some x <->
  assoc m (modules E) = Some x \/ (assoc m (modules E) = None /\ import_custom fR = true /\ assoc m (importable E) = Some x).
Proof. unfold present. destruct (assoc m (modules E)), (import_custom fR); intuition congruence. Qed.
Lemma settle_some h k c ok : snd (settle h k) = Some (c, ok) <->
  k = Some (AExc c ok) \/ (h = true /\ exists imps, k = Some (ALazy imps (Some (c, ok)))).
Proof.
  split.
  - destruct k as [[| |imps f]|]; cbn; try discriminate; [intros [= -> ->]; now left|].
    destruct h; cbn; [intros ->; right; eauto|discriminate].
  - intros [->|(-> & imps & ->)]; reflexivity.
Qed.
Lemma lookup_custom_some M fR E m n c ok : snd (lookup_custom M fR E m n) = Some (c, ok) <->
  inst_custom fR = true /\ exists x, present fR E m = Some x /\ snd (settle (hooks_run M fR) (assoc n x)) = Some (c, ok).
Proof.
  unfold lookup_custom. destruct (inst_custom fR); [|split; [discriminate|now intros [? _]]].
  destruct (present fR E m) as [x|]; split.
  - eauto.
  - now intros (_ & y & [= <-] & H).
  - discriminate.
  - now intros (_ & y & ? & _).
Qed.

Theorem custom_real_iff M fR E m n c : text_eqb m BUILTINS = false ->
  fst (expected_class M fR E m n) = Real c <->
  inst_custom fR = true /\
  exists x, (assoc m (modules E) = Some x \/ (assoc m (modules E) = None /\ import_custom fR = true /\ assoc m (importable E) = Some x))
            /\ exists ok, assoc n x = Some (AExc c ok) \/
                          (hooks_run M fR = true /\ exists imps, assoc n x = Some (ALazy imps (Some (c, ok)))).
Proof.
  intros _. setoid_rewrite <- settle_some. setoid_rewrite <- present_some.
  transitivity (exists ok, snd (lookup_custom M fR E m n) = Some (c, ok)).
  - unfold expected_class. destruct (snd (lookup_custom M fR E m n)) as [[c' ok]|]; cbn [fst]; split.
    + intros [= ->]. eauto.
    + now intros [ok' [= -> _]].
    + discriminate.
    + now intros [ok' ?].
  - setoid_rewrite lookup_custom_some. firstorder.
Qed.

Lemma do_sets_raise items sets e : do_sets items = (sets, Raise e) -> e = TypeError \/ e = ValueError.
Proof.
  revert sets. induction items as [|it rest IH]; intros sets; [discriminate|]. cbn [do_sets].
  destruct (unpack 2 it) as [[|n [|v [|? ?]]]| | |] eqn:U; try discriminate; try (intros [= _ <-]; auto; fail).
  - destruct (do_sets rest) as [s0 r0]. intros [= _ ->]. now apply (IH s0).
  - intros [= _ <-]. now apply unpack_raise in U.
Qed.
Lemma status_fail E sets tb e : status_of E sets tb = Fail e -> e = TypeError \/ e = AttributeError.
Proof.
  unfold status_of. destruct (last_version sets) as [[]|]; try discriminate; try (intros [= <-]; auto; fail).
  destruct (text_eqb _ _); [discriminate|]. destruct (text_eqb _ _); [discriminate|]. destruct tb; try discriminate; intros [= <-]; auto.
Qed.

Lemma build_ok E eff rc ok a t b : exists r, build E eff rc ok a t b = (eff ++ [ENew rc], r) /\ failure_ok r.
Proof.
  unfold build. destruct (negb ok); [eexists; split; [reflexivity|cbn; auto]|].
  destruct (iter_elems true t) as [items|e| |] eqn:EI; try (eexists; split; [reflexivity|exact I]).
  - destruct (do_sets items) as [s [u|e| |]] eqn:ED; eexists; (split; [reflexivity|]); try exact I; cbn.
    + destruct (status_of E s b) as [|e] eqn:ES; [exact I|]. apply status_fail in ES as [->| ->]; auto.
    + apply do_sets_raise in ED as [->| ->]; auto.
  - eexists; split; [reflexivity|]. apply iter_elems_raise in EI as ->. cbn; auto.
Qed.
Lemma generic_ok E eff m n a t b : exists tail r,
  generic_or_fail E eff m n a t b = (eff ++ tail, r) /\ (tail = [] \/ tail = [ENew (Generic m n)]) /\ failure_ok r.
Proof.
  unfold generic_or_fail, generic_name_check.
  destruct (existsb is_surr _).
  { exists [], (Raise UnicodeError). rewrite app_nil_r. cbn. auto 6. }
  destruct (existsb (N.eqb 0) _).
  { exists [], (Raise ValueError). rewrite app_nil_r. cbn. auto 6. }
  destruct (build_ok E eff (Generic m n) true a t b) as (r & -> & Hr). eauto 6.
Qed.

(* classes the loader may instantiate: a generic stand-in, or a real one that builtins holds when instantiate_custom is off *)
Definition class_ok (fR : rflags) (E : env) (rc : rcls) : Prop :=
  match rc with
  | Real c => inst_custom fR = true \/ exists n ok, assoc n (builtins_ns E) = Some (AExc c ok)
  | Generic _ _ => True
  end.
(* the two ways an import may happen *)
Definition import_ok (M : lookup_mode) (fR : rflags) (E : env) (m : text) : Prop :=
  (import_custom fR = true /\ in_modules E (modules E) (PStr m) = false) \/ (hooks_run M fR = true /\ inst_custom fR = true).
Definition effects_ok (M : lookup_mode) (fR : rflags) (E : env) (l : list effect) : Prop :=
  exists imps tail, l = map EImport imps ++ tail /\ Forall (import_ok M fR E) imps /\
    (tail = [] \/ exists rc, tail = [ENew rc] /\ class_ok fR E rc).
Lemma effects_ok_nil M fR E : effects_ok M fR E [].
Proof. exists [], []. auto. Qed.

Lemma import_part_names M fR E modname :
  exists ms, import_part fR E modname = map EImport ms /\ Forall (import_ok M fR E) ms.
Proof.
  unfold import_part, import_guard. cbn [eval_cond]. destruct (import_custom fR) eqn:EC; [|now exists []]. cbn [andb].
  destruct (in_modules E (modules E) modname) eqn:EI; [now exists []|]. cbn [negb].
  destruct modname as [| | | | | | | |m| | | |]; try (now exists []). exists [m]. split; [reflexivity|]. constructor; [now left|constructor].
Qed.

Lemma resolved_origin M fR E mods modname clsname k :
  run_prog M fR E mods modname clsname resolution_prog = Ok k ->
  (fst (settle true k) = [] \/ (hooks_run M fR = true /\ inst_custom fR = true)) /\
  forall c ok, snd (settle true k) = Some (c, ok) -> class_ok fR E (Real c).
Proof.
  rewrite run_ladder. intros H.
  assert (K : k = None \/ exists x, k = Some x) by (destruct k; eauto). destruct K as [->|[x ->]]; [split; [now left|discriminate]|].
  unfold class_ok. destruct (inst_custom fR).
  - split; [|now left]. destruct x; try (now left). right. split; [|reflexivity].
    destruct (in_modules E mods modname); [|discriminate]. apply getattr_ns_found in H as (_ & _ & _ & _ & H). eauto.
  - destruct (match modname with PStr m => text_eqb m BUILTINS | _ => false end); [|discriminate].
    apply getattr_ns_found in H as (n & y & [= <-] & H & HL). destruct x as [c ok| |imps f]; cbn.
    + split; [now left|]. intros ? ? [= <- <-]. eauto.
    + split; [now left|discriminate].
    + discriminate (HL imps f eq_refl).
Qed.

Lemma load_class_ok M fR E modname clsname args attrs tb :
  failure_ok (snd (load_class M fR E modname clsname args attrs tb)) /\
  effects_ok M fR E (fst (load_class M fR E modname clsname args attrs tb)).
Proof.
  unfold load_class. destruct (import_part_names M fR E modname) as (ms & -> & Hms).
  assert (stop : forall r, failure_ok r -> failure_ok r /\ effects_ok M fR E (map EImport ms)).
  { intros r Hr. split; [exact Hr|]. exists ms, []. rewrite app_nil_r. auto. }
  destruct (run_prog _ _ _ _ _ _ _) as [k|e| |] eqn:ER.
  - destruct (resolved_origin _ _ _ _ _ _ _ ER) as [HH HC]. destruct (settle true k) as [imps found]. cbn [fst snd] in *.
    rewrite <- map_app.
    assert (HI : Forall (import_ok M fR E) (ms ++ imps)).
    { apply Forall_app. split; [exact Hms|]. destruct HH as [->|HH]; [constructor|]. apply Forall_forall. intros m _. now right. }
    destruct found as [[c ok]|].
    + destruct (build_ok E (map EImport (ms ++ imps)) (Real c) ok args attrs tb) as (r & -> & Hr).
      split; [exact Hr|]. exists (ms ++ imps), [ENew (Real c)]. eauto 7.
    + destruct (generic_ok E (map EImport (ms ++ imps)) modname clsname args attrs tb) as (tail & r & -> & Ht & Hr).
      split; [exact Hr|]. exists (ms ++ imps), tail. repeat split; [exact HI|].
      destruct Ht as [->| ->]; [now left|]. right. eexists. split; [reflexivity|exact I].
  - apply stop. apply run_prog_raise in ER as ->. cbn. auto.
  - now apply stop.
  - now apply stop.
Qed.

Lemma unpack_failed_ok M fR E n v :
  failure_ok (snd (unpack_failed (unpack n v))) /\ effects_ok M fR E (fst (unpack_failed (unpack n v))).
Proof.
  split; [|apply effects_ok_nil]. destruct (unpack n v) as [l|e| |] eqn:U; cbn; auto. apply unpack_raise in U as [->| ->]; auto.
Qed.
Lemma vload_ok M fR E v :
  (if py_eq_one v then snd (vload M fR E v) = Ok LStop else failure_ok (snd (vload M fR E v))) /\
  effects_ok M fR E (fst (vload M fR E v)).
Proof.
  destruct (py_eq_one v) eqn:H; [rewrite vload_stop by exact H; split; [reflexivity|apply effects_ok_nil]|].
  assert (S : (exists s, v = PStr s) \/ forall s, v <> PStr s) by (destruct v; eauto; right; discriminate).
  destruct S as [[s ->]|NS]; [split; [exact I|apply effects_ok_nil]|]. rewrite (vload_unpacked M fR E v H NS).
  destruct (unpack 4 v) as [[|key [|args [|attrs [|tb [|? ?]]]]]| | |] eqn:U4; try (rewrite <- U4; apply unpack_failed_ok).
  destruct (unpack 2 key) as [[|modname [|clsname [|? ?]]]| | |] eqn:U2; try (rewrite <- U2; apply unpack_failed_ok).
  apply load_class_ok.
Qed.
Lemma vload_effects M fR E v : effects_ok M fR E (fst (vload M fR E v)).
Proof. apply vload_ok. Qed.

Lemma import_part_off fR E modname : import_custom fR = false -> import_part fR E modname = [].
Proof. intros H. unfold import_part, import_guard. cbn [eval_cond]. now rewrite H. Qed.

Lemma effects_ok_in M fR E l x : effects_ok M fR E l -> In x l ->
  (exists m, x = EImport m /\ import_ok M fR E m) \/ (exists rc, x = ENew rc /\ class_ok fR E rc).
Proof.
  intros (imps & tail & -> & HI & HT). rewrite in_app_iff. intros [H|H].
  - left. apply in_map_iff in H as (m & <- & H). rewrite Forall_forall in HI. eauto.
  - right. destruct HT as [->|(rc & -> & HC)]; [contradiction|]. destruct H as [<-|[]]. eauto.
Qed.

(* imports: only the guarded __import__ (import_custom on, module not loaded) or a module hook the sys.modules lookup
   consulted (needs instantiate_custom) *)
Theorem import_only_two_ways M fR E v m : In (EImport m) (fst (vload M fR E v)) ->
  (import_custom fR = true /\ in_modules E (modules E) (PStr m) = false) \/ (hooks_run M fR = true /\ inst_custom fR = true).
Proof.
  intros H. destruct (effects_ok_in _ _ _ _ _ (vload_effects M fR E v) H) as [(? & [= <-] & K)|(? & [=] & _)]. exact K.
Qed.

(* the generated guard: the lookup consults module hooks only when importing is allowed *)
Definition mode_safe (M : lookup_mode) : bool := match M with LkGetattr => false | _ => true end.
Theorem no_import_unless_allowed M fR E v m : mode_safe M = true -> In (EImport m) (fst (vload M fR E v)) ->
  import_custom fR = true.
Proof.
  intros HM HI. apply import_only_two_ways in HI as [[H _]|[H _]]; [exact H|].
  destruct M; [discriminate HM | exact H | discriminate H].
Qed.

Theorem never_init M fR E v c : ~ In (EInit c) (fst (vload M fR E v)).
Proof. intros H. now destruct (effects_ok_in _ _ _ _ _ (vload_effects M fR E v) H) as [(? & ? & _)|(? & ? & _)]. Qed.

(* with instantiate_custom off the only real classes ever instantiated come from the builtins namespace *)
Theorem new_only_builtin M fR E v c : inst_custom fR = false -> In (ENew (Real c)) (fst (vload M fR E v)) ->
  exists n ok, assoc n (builtins_ns E) = Some (AExc c ok).
Proof.
  intros HI H. destruct (effects_ok_in _ _ _ _ _ (vload_effects M fR E v) H) as [(? & [=] & _)|(? & [= <-] & K)].
  destruct K as [K|K]; [congruence|exact K].
Qed.

Theorem at_most_one_new M fR E v :
  (List.length (filter (fun x => match x with ENew _ => true | _ => false end) (fst (vload M fR E v))) <= 1)%nat.
Proof.
  destruct (vload_effects M fR E v) as (imps & tail & -> & _ & HT). rewrite filter_app.
  replace (filter _ (map EImport imps)) with (@nil effect) by (induction imps; auto).
  destruct HT as [->|(rc & -> & _)]; cbn; lia.
Qed.

(* a loaded module serving an attribute through a __getattr__ that imports, and a payload naming it: with
   getattr(module, name, None) the receiver imports although import_custom is off (witnesses for props/C09.v) *)
Definition hook_env : env :=
  {| builtins_ns := []; modules := [(txt "lazymod", [(txt "Thing", ALazy [txt "heavy.dependency"] None)])];
     importable := []; local_major := txt "5" |}.
Definition hook_payload : pyval :=
  PTuple [PTuple [PStr (txt "lazymod"); PStr (txt "Thing")]; PTuple []; PTuple []; PStr (txt "tb")].

Theorem fastpath_dump P fS ver tb e : vdump P fS ver tb e = PInt EXC_STOP <-> fast_taken P e = true.
Proof.
  unfold vdump. destruct (fast_taken P e); [easy|]. split; [|discriminate].
  destruct (walk_dir _ _ _), (cls_key _). discriminate.
Qed.

Theorem fastpath_load M fR E v : snd (vload M fR E v) = Ok LStop <-> py_eq_one v = true.
Proof.
  destruct (vload_ok M fR E v) as [K _]. destruct (py_eq_one v); [now rewrite K|]. split; [|discriminate].
  intros S. rewrite S in K. contradiction.
Qed.

Theorem fastpath_roundtrip M P fS fR E ver tb e : fast_taken P e = true ->
  vload M fR E (vdump P fS ver tb e) = ([], Ok LStop).
Proof. intros H. unfold vdump. now rewrite H. Qed.

(* a failure of the loader is one of four kinds, never EOFError; so with the delivering dispatch every exception
   message reaches the request it answers *)
Theorem vload_failure_kinds M fR E v e : load_failure (snd (vload M fR E v)) = Some e ->
  e = TypeError \/ e = ValueError \/ e = UnicodeError \/ e = AttributeError.
Proof.
  destruct (vload_ok M fR E v) as [K _]. destruct (py_eq_one v); [now rewrite K|]. revert K.
  destruct (snd (vload M fR E v)) as [[| |c x y [tb w|e0]]|e0| |]; try discriminate; intros K [= <-]; cbn in K; intuition.
Qed.

Theorem exception_reaches_request M fR E v : forall e, dispatch_exception true (snd (vload M fR E v)) <> Escapes e.
Proof.
  intros e. unfold dispatch_exception. destruct (load_failure (snd (vload M fR E v))) as [x|] eqn:EL.
  - destruct (vload_failure_kinds _ _ _ _ _ EL) as [->|[->|[->| ->]]]; discriminate.
  - destruct (snd (vload M fR E v)); discriminate.
Qed.

(* disclosure: the payload depends on traceback and version text only through the two fields the sender's switches govern *)
Lemma vdump_fields P fS ver1 ver2 tb1 tb2 e : tb_field fS tb1 = tb_field fS tb2 -> version_attr fS ver1 = version_attr fS ver2 ->
  vdump P fS ver1 tb1 e = vdump P fS ver2 tb2 e.
Proof. intros HT HV. unfold vdump. now rewrite HT, HV. Qed.

(* the record survives the wire (brine) unchanged *)
Lemma norm_dumpable o : dumpable (norm o) = true.
Proof. unfold norm. destruct (dumpable (o_val o)) eqn:E; [exact E|reflexivity]. Qed.

Theorem vdump_dumpable P fS ver tb e : dumpable (vdump P fS ver tb e) = true.
Proof.
  unfold vdump. destruct (fast_taken P e); [reflexivity|]. rewrite walk_dir_eq. destruct (cls_key _) as [m n].
  cbn [dumpable forallb tb_field andb]. rewrite andb_true_r. apply andb_true_intro. split; apply forallb_forall; intros x H.
  - apply in_flat_map in H as (_ & _ & H). apply in_map_iff in H as (o & <- & _). apply norm_dumpable.
  - apply in_map_iff in H as (na & <- & H). apply in_app_iff in H as [H|[<-|[]]]; [|reflexivity].
    apply in_public_attrs in H as (o & _ & Hv & _). cbn. now rewrite Hv, norm_dumpable.
Qed.

Theorem wire_roundtrip B P fS ver tb e :
  wf B (vdump P fS ver tb e) = true -> text_ok B (vdump P fS ver tb e) = true ->
  exists bs, Brine.dump B (vdump P fS ver tb e) = Ok bs /\ Brine.load B bs = Ok (vdump P fS ver tb e).
Proof. intros HW HT. exact (load_dump B _ HW (vdump_dumpable P fS ver tb e) HT). Qed.

Theorem serve_not_routed P fS ver tb e : routed fS (e_cls e) = false -> serve_exc P fS ver tb e = Sent (vdump P fS ver tb e).
Proof. intros H. unfold serve_exc. now rewrite H. Qed.
Theorem routed_only_two fS c : routed fS c = true ->
  (c = Builtin SYSTEM_EXIT /\ prop_sysexit fS = true) \/ (c = Builtin KEYBOARD_INTERRUPT /\ prop_kbdint fS = true).
Proof.
  unfold routed, is_builtin_named. destruct c as [n|m n]; [|discriminate]. intros H. apply orb_true_iff in H as [H|H];
  apply andb_true_iff in H as [H1 H2]; apply text_eqb_eq in H1; subst n; auto.
Qed.
