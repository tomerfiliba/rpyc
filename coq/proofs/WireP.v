(* The layers composed: values -> brine bytes -> frames -> arbitrarily fragmented byte stream -> frames -> values.
   Nothing new is modelled here; the theorems glue BrineP (C04) and ChannelP (C05) together and add the receiver-side
   statement for frames an independent sender may emit (any flag byte, compressed at any size). *)
From V Require Import lib.Base model.Brine model.Channel proofs.BrineP proofs.ChannelP.
Open Scope N_scope.

Section Wire.
Variable decompress : list byte -> result (list byte).
Variable P : cparams.
Hypothesis Hhdr : hdr_size P = 5.
Hypothesis Hchunk : hdr_size P + nlen (flusher P) <= chunk P.

(* A frame built by anybody who follows the published layout:
   4-byte big-endian length of the body, one flag byte, the body, the trailer; the body is the payload itself when the flag
   byte is 0 and otherwise anything the receiver's zlib inflates to the payload. No threshold is demanded of the sender. *)
Definition conforming (fl : byte) (body payload : list byte) : Prop :=
  nlen body < 4294967296 /\ (if Byte.eqb fl x00 then Ok body else decompress body) = Ok payload.
Definition wire_frame (fl : byte) (body : list byte) : list byte :=
  (be4 (nlen body) ++ [fl]) ++ body ++ flusher P.

(* a whole stream of conforming frames, read through any benign fragmentation, is delivered payload by payload *)
Fixpoint wire_of (fs : list (byte * list byte)) : list byte :=
  match fs with [] => [] | (fl, body) :: t => wire_frame fl body ++ wire_of t end.

Theorem recv_all_conforming tol : forall fs payloads evs acc fuel,
  Forall2 (fun f p => conforming (fst f) (snd f) p) fs payloads -> benign_r tol evs -> (length fs < fuel)%nat ->
  recv_all decompress P fuel tol evs (wire_of fs) acc = (List.rev acc ++ payloads, false).
Proof using Hhdr Hchunk.      (* [Hchunk] is not needed (see ChannelP); C19's statement of this theorem carries it *)
  induction fs as [|[fl body] fs IH]; intros payloads evs acc fuel HF Hb Hfuel; inversion HF as [|? p ? ps Hc HF']; subst.
  - destruct fuel as [|fuel]; [cbn in Hfuel; lia|]. cbn [recv_all wire_of].
    destruct (recv_empty decompress P Hhdr tol evs) as (evs' & av & ->). now rewrite app_nil_r.
  - destruct fuel as [|fuel]; [cbn in Hfuel; lia|]. cbn [recv_all wire_of]. cbn [fst snd] in Hc.
    destruct Hc as [Hl Hd]. unfold wire_frame.
    destruct (channel_recv_layout decompress P Hhdr tol fl body p evs (wire_of fs) Hl Hd) as [(evs' & -> & B)|(evs' & av & _ & B)];
      [|contradiction].
    rewrite (IH ps evs' (p :: acc) fuel HF' (B Hb)) by (cbn in Hfuel; lia). cbn [List.rev]. now rewrite <- app_assoc.
Qed.

Variable compress : list byte -> list byte.
Hypothesis zlib_roundtrip : forall x, decompress (compress x) = Ok x.
Variable BP : bparams.

Definition transferable (v : pyval) : Prop := wf BP v = true /\ dumpable v = true /\ text_ok BP v = true.

Fixpoint dump_all (vs : list pyval) : result (list (list byte)) :=
  match vs with
  | [] => Ok []
  | v :: t => do b <- dump BP v; do r <- dump_all t; Ok (b :: r)
  end.
Fixpoint load_all (pkts : list (list byte)) : result (list pyval) :=
  match pkts with
  | [] => Ok []
  | b :: t => do v <- load BP b; do r <- load_all t; Ok (v :: r)
  end.

Lemma dump_load_all : forall vs, Forall transferable vs -> exists pkts, dump_all vs = Ok pkts /\ load_all pkts = Ok vs /\ length pkts = length vs.
Proof.
  induction vs as [|v vs IH]; intros HF.
  - exists []. repeat split.
  - inversion HF as [|? ? (Hw & Hd & Ht) HF']; subst. destruct (IH HF') as (pkts & E & L & N).
    destruct (load_dump BP v Hw Hd Ht) as (bs & Eb & Lb).
    exists (bs :: pkts). cbn [dump_all load_all]. rewrite Eb, E, Lb, L. cbn. now rewrite N.
Qed.

(* every finite sequence of transferable values, encoded, framed (with or without compression), written through a transport
   that accepts any number of bytes per call and read through one that splits, coalesces and interrupts reads arbitrarily,
   decodes at the far end to exactly the same sequence of values; the only side condition is the format's own 4-byte length *)
Theorem values_end_to_end tol cmp vs : Forall transferable vs ->
  exists pkts, dump_all vs = Ok pkts /\
    forall fs wevs revs fuel, frames compress P cmp pkts = Ok fs -> benign_w wevs -> benign_r tol revs -> (length vs < fuel)%nat ->
      exists wire got, send_all compress P cmp wevs pkts [] = Ok (true, wire)
                       /\ recv_all decompress P fuel tol revs wire [] = (got, false) /\ load_all got = Ok vs.
Proof.
  intros HF. destruct (dump_load_all vs HF) as (pkts & E & L & N). exists pkts. split; [exact E|].
  intros fs wevs revs fuel Hfs Hw Hr Hfuel.
  destruct (end_to_end compress decompress zlib_roundtrip P Hhdr Hchunk tol cmp pkts fs wevs revs fuel Hfs Hw Hr ltac:(now rewrite N))
    as (wire & Es & Er).
  exists wire, pkts. auto.
Qed.
End Wire.
