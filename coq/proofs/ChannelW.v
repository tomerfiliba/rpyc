(* Writer side under ANY transport behaviour (partial sends, failures at any point): what reaches the wire is a prefix of the frame,
   the whole frame exactly when the send reports success. Together with recv_all_cut (reader of any prefix of a frame stream gets
   whole leading packets only) this is the writer half of "never a shortened, padded or merged packet". *)
From V Require Import lib.Base model.Channel proofs.ChannelP.
Open Scope N_scope.

Definition is_prefix (w f : list byte) : Prop := exists rest, f = w ++ rest.

Section W.
Variable compress : list byte -> list byte.
Variable P : cparams.

(* whatever the transport does while Channel.send writes a packet: the bytes that reached the wire are a prefix of that packet's
   frame; all of it exactly when send returns normally (otherwise the stream was closed and EOFError raised) *)
Theorem send_any_transport cmp data evs f ok w evs' :
  frame compress P cmp data = Ok f -> channel_send compress P cmp evs data = Ok (ok, w, evs') ->
  is_prefix w f /\ (ok = true -> w = f).
Proof.
  intros Hf Hs. destruct (channel_send_spec compress P cmp data evs f Hf) as (ok0 & w0 & e0 & E & (rest & -> & Hr) & _).
  rewrite E in Hs. injection Hs as <- <- <-. split; [now exists rest|]. intros H. now rewrite (Hr H), app_nil_r.
Qed.
End W.

Section WR.
Variable compress : list byte -> list byte.
Variable decompress : list byte -> result (list byte).
Hypothesis zlib_roundtrip : forall x, decompress (compress x) = Ok x.
Variable P : cparams.
Hypothesis Hhdr : hdr_size P = 5.
Hypothesis Hchunk : hdr_size P + nlen (flusher P) <= chunk P.

Lemma frames_snoc cmp : forall pkts fs d f, frames compress P cmp pkts = Ok fs -> frame compress P cmp d = Ok f ->
  frames compress P cmp (pkts ++ [d]) = Ok (fs ++ [f]).
Proof.
  induction pkts as [|x pkts IH]; intros fs d f Hfs Hf.
  - injection Hfs as <-. cbn. now rewrite Hf.
  - destruct (frames_cons compress P cmp x pkts fs Hfs) as (fx & fs' & Hx & Hfs' & ->).
    cbn [app frames fold_right]. fold (frames compress P cmp (pkts ++ [d])). now rewrite Hx, (IH fs' d f Hfs' Hf).
Qed.

Lemma prefix_as_nfirst (a w f : list byte) : is_prefix w f -> a ++ w = nfirst (nlen (a ++ w)) (a ++ f).
Proof.
  intros [rest ->]. unfold nfirst, nlen. rewrite Nat2N.id, app_assoc, firstn_app, Nat.sub_diag, firstn_all. cbn. now rewrite app_nil_r.
Qed.

(* packets [pkts] were sent completely, then the send of [d] went through any transport behaviour at all (possibly failing after
   some bytes): whoever reads what is on the wire - through any read behaviour - gets the first n packets of pkts ++ [d], whole, for some n
   (which n, for a benign reader: c05_cut_exact) *)
Theorem writer_fault_seen_by_reader tol cmp pkts fs d f wevs ok w wevs' revs fuel :
  frames compress P cmp pkts = Ok fs -> frame compress P cmp d = Ok f ->
  channel_send compress P cmp wevs d = Ok (ok, w, wevs') ->
  exists n, recv_all decompress P fuel tol revs (concat fs ++ w) [] = (firstn n (pkts ++ [d]), false).
Proof.
  intros Hfs Hf Hs. destruct (send_any_transport compress P cmp d wevs f ok w wevs' Hf Hs) as [Hp _].
  pose proof (frames_snoc cmp pkts fs d f Hfs Hf) as Hfs'.
  rewrite (prefix_as_nfirst (concat fs) w f Hp).
  replace (concat fs ++ f) with (concat (fs ++ [f])) by (rewrite concat_app; cbn; now rewrite app_nil_r).
  destruct (recv_all_cut compress decompress zlib_roundtrip P Hhdr Hchunk tol cmp (pkts ++ [d]) (fs ++ [f]) (nlen (concat fs ++ w)) revs [] fuel Hfs')
    as (n & E & _). now exists n.
Qed.
End WR.
