(* C13/C14: messages nobody is waiting for -- in particular the PEER's OWN REQUESTS.

   model/Serve.v speaks of replies: a message in the stream carries the number of a request some thread issued.  A request of the peer's
   own (served by whichever thread reads it: a BgServingThread, or a client that happens to hold the receive lock) is, for every OTHER thread,
   the same thing as a reply whose issuer is not looking: it sits in the stream in front of or behind the replies, it is read under the
   receive lock, the lock is released and the sleepers are notified BEFORE it is dispatched, and dispatching it (running the handler, for as
   long as that takes: the thread simply stays at S5) touches nobody else's result.  The harness maps every inbound request to such a
   message: an `issue` by a thread identifier that never takes another step (harness/C13.py, model_events: phantom issuers).

   What that reading needs, and what is proved here for every reachable state:
     1. dispatching a message changes only that message's own cell and the dispatcher's own program counter (dispatch_frame);
     2. a thread that is outside serve() and does not move is never moved by anybody (absent_stays), and
     3. NO continuation ever needs a step of such a thread: from every reachable state every waiting thread w can still leave wait()
        (Returned, or TimedOut only if its own expiry had passed) by steps of w itself and of threads that are inside serve() with the lock or
        a frame in hand, plus the peer's answers -- the absent issuers (the peer's requests have no local issuer at all) are never scheduled
        (no_trap_without).  This strengthens ServeF.no_trap, whose witness schedule was not constrained. *)
From V Require Import lib.Base model.Serve proofs.ServeP proofs.ServeF.

Definition serving (p : pc) : bool := match p with S2 | S3 | S4 | S5 => true | _ => false end.
Definition outside (p : pc) : bool := match p with Idle | LoopTest | Returned | TimedOut => true | _ => false end.
(* who acts: nobody (the peer's answer), the waiter itself, or a thread inside serve() that holds the lock or carries a frame *)
Definition actor_ok (s : st) (w : nat) (l : label) (i : nat) : Prop :=
  (exists q, l = LAnswer q) \/ i = w \/ serving (tpc (thrs s i)) = true.

(* 1. the dispatch of a message touches only that message's cell *)
Lemma dispatch_frame s i s' q : tpc (thrs s i) = S5 -> hand (thrs s i) = Some q -> step LStep i s = Some s' ->
  (forall q', q' <> q -> ready s' q' = ready s q' /\ pending s' q' = pending s q' /\ ph s' q' = ph s q' /\ late s' q' = late s q')
  /\ (forall j, j <> i -> thrs s' j = thrs s j) /\ inbox s' = inbox s /\ holder s' = holder s /\ counter s' = counter s
  /\ dispatched s' = dispatched s ++ [q].
Proof.
  intros Hp Hh H. unfold step in H. rewrite Hp, Hh in H. injection H as <-. cbn.
  split; [|split; [intros j Hj; apply upd_other; exact Hj|repeat split]].
  intros q' Hq. rewrite !(upd_other _ q q') by exact Hq. split; [|split; [reflexivity|split; [reflexivity|]]].
  - destruct (pending s q); [destruct (expd s q); [reflexivity|apply upd_other; exact Hq]|reflexivity].
  - destruct (expd s q); [apply upd_other; exact Hq|reflexivity].
Qed.

(* 2. a thread outside serve() that does not move is not moved *)
Lemma absent_stays s l i s' j : step l i s = Some s' -> ((exists q, l = LAnswer q) \/ (exists q, l = LExpire q) \/ j <> i) ->
  outside (tpc (thrs s j)) = true -> thrs s' j = thrs s j.
Proof.
  intros H Hj Ho.
  destruct (step_Step _ _ _ _ H) as [l' p0 p f hl _ Hmv| | | | |]; cbn [thrs moved]; try reflexivity;
    destruct Hj as [[q0 X]|[[q0 X]|Hj]]; try discriminate X; try (destruct Hmv; discriminate X);
    rewrite upd_other by exact Hj; try reflexivity.
  (* notify_all moves only sleepers *)
  destruct (move_others s i l' p0 p f hl j Hmv) as [-> | ->]; [reflexivity|].
  unfold wake. destruct (tpc (thrs s j)); reflexivity || discriminate Ho.
Qed.

(* 3. nobody outside serve() is ever needed *)
Lemma mover_actor s w q l i : InvA s -> InvB s -> mover s w q l i -> actor_ok s w l i.
Proof.
  intros IA IB [q0 j|l'|l' h X|l' h X]; unfold actor_ok; eauto; right; right.
  - (* the lock holder is at S2 or S3 *)
    apply (A_hold s IA) in X. destruct (tpc (thrs s h)); discriminate || reflexivity.
  - (* the thread with q in hand is at S3, S4 or S5 *)
    apply (B_hand2 s IB), (B_hand1 s IB) in X. destruct X as [_ X]. destruct (tpc (thrs s h)); discriminate || reflexivity.
Qed.

Lemma nearer_by s w q : InvA s -> InvB s -> myseq (thrs s w) = Some q -> in_loop (tpc (thrs s w)) = true ->
  ready s q = false -> expd s q = false ->
  exists l i s', actor_ok s w l i /\ quiet l /\ step l i s = Some s' /\ (settled s' q \/ M s' w q < M s w q).
Proof.
  intros IA IB Hm Hl Hr He. destruct (nearer s w q IA IB Hm Hl Hr He) as (l & i & s' & Hmv & Hrest).
  exists l, i, s'. split; [exact (mover_actor s w q l i IA IB Hmv)|exact Hrest].
Qed.

(* a continuation in which, at every step, the actor is the waiter or a thread inside serve() *)
Inductive runs_by (w : nat) : st -> list (label * nat) -> st -> Prop :=
| rb_nil s : runs_by w s [] s
| rb_cons s l i s1 evs s' : actor_ok s w l i -> quiet l -> step l i s = Some s1 -> runs_by w s1 evs s' -> runs_by w s ((l, i) :: evs) s'.

Lemma runs_by_runl w s evs s' : runs_by w s evs s' -> runl s evs = Some s' /\ (forall e, In e evs -> quiet (fst e)).
Proof.
  induction 1 as [|s l i s1 evs s' Ha Hq Hs R [IH1 IH2]]; [split; [reflexivity|intros e []]|].
  split; [cbn; rewrite Hs; exact IH1|]. intros e [<-|He]; [exact Hq|auto].
Qed.
Lemma own_run_by w : forall evs s s', runl s evs = Some s' -> (forall e, In e evs -> snd e = w /\ quiet (fst e)) -> runs_by w s evs s'.
Proof.
  induction evs as [|[l i] r IH]; intros s s' H Hown; cbn in H; [injection H as <-; constructor|].
  destruct (step l i s) as [s1|] eqn:E; [|discriminate H].
  destruct (Hown (l, i) (or_introl eq_refl)) as [Hi Hq]. cbn in Hi, Hq. subst i.
  econstructor; [right; left; reflexivity|exact Hq|exact E|]. apply IH; [exact H|]. intros e He. apply Hown. right; exact He.
Qed.

Theorem can_always_finish_by : forall n s w q, InvA s -> InvB s -> myseq (thrs s w) = Some q -> inside (tpc (thrs s w)) ->
  M s w q < n -> exists evs s', runs_by w s evs s' /\ finished (tpc (thrs s' w)).
Proof.
  intros n s w q. apply (finish_run w (runs_by w)).
  - intros s0 evs s'. apply own_run_by.
  - intros s0 q0 l i s1 evs s' IA IB Hmv. apply rb_cons. exact (mover_actor s0 w q0 l i IA IB Hmv).
Qed.

(* the absent threads: they are outside serve() and are not the waiter; a run by the waiter and the serving threads never schedules them and
   leaves them exactly as they were *)
Lemma runs_by_absent w (absent : nat -> bool) : absent w = false -> forall s evs s', runs_by w s evs s' ->
  (forall j, absent j = true -> outside (tpc (thrs s j)) = true) ->
  (forall e, In e evs -> (exists q0, fst e = LAnswer q0) \/ absent (snd e) = false) /\ (forall j, absent j = true -> thrs s' j = thrs s j).
Proof.
  intros Hw s evs s' R. induction R as [|s l i s1 evs s' Ha Hq Hs R IH]; intros Hout; [split; [intros e []|reflexivity]|].
  assert (Hi : (exists q0, l = LAnswer q0) \/ absent i = false).
  { destruct Ha as [Ha|[->|Ha]]; [left; exact Ha|right; exact Hw|right].
    destruct (absent i) eqn:Ai; [|reflexivity]. specialize (Hout i Ai). destruct (tpc (thrs s i)); discriminate. }
  assert (Hkeep : forall j, absent j = true -> thrs s1 j = thrs s j).
  { intros j Aj. apply (absent_stays s l i s1 j Hs); [|apply Hout; exact Aj].
    destruct Hi as [Hi|Hi]; [left; exact Hi|right; right; intros ->; congruence]. }
  destruct IH as [IH1 IH2]; [intros j Aj; rewrite (Hkeep j Aj); apply Hout; exact Aj|].
  split; [intros e [<-|He]; [exact Hi|apply IH1; exact He]|intros j Aj; rewrite (IH2 j Aj); apply Hkeep; exact Aj].
Qed.

Theorem no_trap_without s w q (absent : nat -> bool) : InvA s -> InvB s -> InvD s -> myseq (thrs s w) = Some q -> in_loop (tpc (thrs s w)) = true ->
  absent w = false -> (forall j, absent j = true -> outside (tpc (thrs s j)) = true) ->
  exists evs s', runl s evs = Some s' /\ (forall e, In e evs -> quiet (fst e))
    /\ (forall e, In e evs -> (exists q0, fst e = LAnswer q0) \/ absent (snd e) = false)
    /\ (forall j, absent j = true -> thrs s' j = thrs s j)
    /\ (tpc (thrs s' w) = Returned \/ (tpc (thrs s' w) = TimedOut /\ expd s q = true)).
Proof.
  intros IA IB ID Hm Hl Hw Hout.
  destruct (can_always_finish_by (S (M s w q)) s w q IA IB Hm (or_introl Hl) (Nat.lt_succ_diag_r _)) as (evs & s' & Hr & Hf).
  destruct (runs_by_runl w s evs s' Hr) as [Hrun Hq]. destruct (runs_by_absent w absent Hw s evs s' Hr Hout) as [Hsched Hkeep].
  exists evs, s'. split; [exact Hrun|]. split; [exact Hq|]. split; [exact Hsched|]. split; [exact Hkeep|].
  now apply (quiet_run_exit s evs s' w q).
Qed.
