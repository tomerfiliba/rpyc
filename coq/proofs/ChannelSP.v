(* The closed state: once an operation has met the end of the stream or a transport failure, the stream is closed; a closed
   stream answers every later operation with EOFError and touches nothing. *)
From V Require Import lib.Base model.Channel model.ChannelS.
Open Scope N_scope.

Section S.
Variable compress : list byte -> list byte.
Variable decompress : list byte -> result (list byte).
Variable P : cparams.
Variable tolerant cmp : bool.
Local Notation sstep := (sstep compress decompress P tolerant cmp).
Local Notation srun := (srun compress decompress P tolerant cmp).

Lemma sstep_closed s o : closed s = true -> sstep s o = (s, OEOF).
Proof. intros H. unfold ChannelS.sstep. now rewrite H. Qed.

Theorem closed_absorbing : forall ops s, closed s = true -> srun s ops = (s, map (fun _ => OEOF) ops).
Proof.
  induction ops as [|o t IH]; intros s H; [reflexivity|]. cbn [ChannelS.srun map]. rewrite (sstep_closed s o H), (IH s H). reflexivity.
Qed.

(* on an open stream: the operation reports EOFError exactly when it leaves the stream closed *)
Theorem eof_iff_closed s o s' r : closed s = false -> sstep s o = (s', r) -> (r = OEOF <-> closed s' = true).
Proof.
  intros H E. unfold ChannelS.sstep in E. rewrite H in E. destruct o as [d|].
  - destruct (channel_send compress P cmp (wevs s) d) as [[[ok w] e']| e | |]; try (injection E as <- <-; rewrite H; split; discriminate).
    destruct ok; injection E as <- <-; cbn; split; auto; discriminate.
  - destruct (channel_recv decompress P tolerant (revs s) (avail s)) as [[rc r'] a']. destruct rc; injection E as <- <-; cbn; split; auto; discriminate.
Qed.

(* an operation that fails for another reason leaves the stream open: an undescribable packet writes nothing at all *)
Theorem rejected_packet_touches_nothing s d e s' : closed s = false -> sstep s (SSend d) = (s', OErr e) -> s' = s.
Proof.
  intros H E. unfold ChannelS.sstep in E. rewrite H in E.
  destruct (channel_send compress P cmp (wevs s) d) as [[[ok w] e']| e0 | |]; try (now injection E as <- _).
  destruct ok; discriminate.
Qed.

Lemma srun_app : forall a b s, srun s (a ++ b) = let '(s1, r1) := srun s a in let '(s2, r2) := srun s1 b in (s2, r1 ++ r2).
Proof.
  induction a as [|o t IH]; intros b s; cbn [app ChannelS.srun].
  - now destruct (srun s b).
  - destruct (sstep s o) as [s1 r]. rewrite IH. destruct (srun s1 t) as [s2 rs]. now destruct (srun s2 b).
Qed.

(* a session on an open stream leaves it closed exactly when some operation reported EOFError *)
Lemma srun_closed_iff : forall ops s s' rs, closed s = false -> srun s ops = (s', rs) -> (closed s' = true <-> In OEOF rs).
Proof.
  induction ops as [|o t IH]; intros s s' rs H E; cbn [ChannelS.srun] in E.
  - injection E as <- <-. rewrite H. split; [discriminate | contradiction].
  - destruct (sstep s o) as [s1 r] eqn:E1. destruct (srun s1 t) as [s2 rs2] eqn:E2. injection E as <- <-.
    pose proof (eof_iff_closed s o s1 r H E1) as Hr. cbn [In]. destruct (closed s1) eqn:H1.
    + rewrite (closed_absorbing t s1 H1) in E2. injection E2 as <- _. split; [intros _; left; now apply Hr | now rewrite H1].
    + rewrite (IH s1 s2 rs2 H1 E2). split; [now right | intros [->|]; [discriminate (proj1 Hr eq_refl) | assumption]].
Qed.

(* the whole statement: in any session, once some operation has reported EOFError every later operation reports EOFError, and
   the transport (bytes written, bytes and events left) is exactly what it was after the earlier operations *)
Theorem after_eof_everything_fails : forall before after s s1 r1,
  srun s before = (s1, r1) -> In OEOF r1 -> srun s (before ++ after) = (s1, r1 ++ map (fun _ => OEOF) after).
Proof.
  intros before after s s1 r1 E Hin. rewrite srun_app, E, closed_absorbing; [reflexivity|].
  destruct (closed s) eqn:H; [|now apply (srun_closed_iff before s s1 r1 H E)].
  rewrite (closed_absorbing before s H) in E. now injection E as <- _.
Qed.

(* and conversely a session that never reported EOFError is still open *)
Theorem open_until_eof : forall ops s s' rs, closed s = false -> srun s ops = (s', rs) -> ~ In OEOF rs -> closed s' = false.
Proof. intros ops s s' rs H E Hn. apply not_true_is_false. intros H'. now apply Hn, (srun_closed_iff ops s s' rs H E). Qed.
End S.
