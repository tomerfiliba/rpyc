(* Proofs about the forwarding layer (model/ProxyOps.v).  Routing: the request a netref builds is served as the operation itself
   (routing_faithful: BaseNetref's own methods entry by entry, every other name through _make_method).  Configurations: what
   _check_attr lets through (permitted_one).  Sequences: the owner applies [operate], so a run through proxies is the run on a
   twin (step_sim, run_sim); a refused step changes nothing.  Then the worlds of C02's refutations and buffered iteration. *)
From V Require Import lib.Base model.Attr model.ProxyOps.
From Coq Require Import String.
Open Scope string_scope.
Open Scope bool_scope.

Lemma smem_true_in s l : smem s l = true <-> In s l.
Proof. apply existsb_eqb_in, String.eqb_eq. Qed.
Lemma smem_app s l l' : smem s (l ++ l') = smem s l || smem s l'.
Proof. apply existsb_app. Qed.
Lemma smem_app_r s l l' : smem s (l ++ l') = false -> smem s l' = false.
Proof. rewrite smem_app. intros H. now apply orb_false_iff in H. Qed.
Lemma slookup_in {A} (l : list (string * A)) k v : slookup l k = Some v -> In (k, v) l.
Proof.
  induction l as [|[k' v'] l IH]; [discriminate|]. cbn [slookup].
  destruct (String.eqb_spec k k') as [->|_]; [intros [= ->]; now left|right; auto].
Qed.

(* BaseNetref's own forwarding methods are all proxy-local names, so class_factory never shadows them *)
Lemma base_methods_local : forallb (fun e => smem (fst e) local_attrs) base_methods = true.
Proof. reflexivity. Qed.
Lemma base_methods_not_shadowed ms d : In d (map fst base_methods) -> synthesized ms d = false.
Proof.
  intros Hin. apply in_map_iff in Hin as (e & <- & He). unfold synthesized.
  rewrite (proj1 (forallb_forall _ _) base_methods_local e He). apply andb_false_r.
Qed.
Lemma cmp_in_base : forallb (fun d => match slookup base_methods d with
                                      | Some (MSync "HANDLE_CMP" [MParam 0; MConst d'] WNone) => String.eqb d d'
                                      | _ => false end) cmp_names = true.
Proof. reflexivity. Qed.

(* every name [direct] and [well_formed] single out, except __call__, is one of the proxy's own: for any other special
   method the operation is the call of the bound method *)
Lemma special_not_local d n k : smem d local_attrs = false ->
  (forall A (truthy : A -> bool) (ops : nat -> A),
     direct truthy ops (OSpecial d n k)
     = if String.eqb d "__call__" then ACall (map ops (positional n)) (kwmap ops (keyworded n k))
       else ACallAttr d (map ops (positional n)) (kwmap ops (keyworded n k)))
  /\ well_formed (OSpecial d n k) = negb (smem d (slicers ++ ["__array__"])).
Proof.
  intros L.
  assert (E : forall lit, smem lit local_attrs = true -> String.eqb d lit = false).
  { intros lit Hl. destruct (String.eqb_spec d lit) as [->|]; congruence. }
  split; [intros A truthy ops|]; unfold direct, well_formed, smem; cbn [existsb cmp_names].
  - (* the test for __call__ set aside, every remaining test is against a local name *)
    set (c := String.eqb d "__call__"). now rewrite !E.
  - now rewrite !E.
Qed.

Lemma arity_check_true n m k : Nat.eqb n m && no_kw k = true -> n = m /\ k = [].
Proof. intros H. apply andb_true_iff in H as [Hn Hk]. apply Nat.eqb_eq in Hn. now destruct k. Qed.

(* a forwarded read is one HANDLE_GETATTR request for the name; Python's fallback repeats it on a tree whose __getattr__
   asks again, except for __doc__, which __getattribute__ hands to __getattr__ itself *)
Lemma forwarded_read n : forwarded (OGetAttr n) = true -> n <> "__doc__" ->
  smem n local_attrs = false /\ String.eqb n "__call__" = false /\ String.eqb n "__array__" = false.
Proof.
  unfold forwarded. intros H Hn. apply String.eqb_neq in Hn. rewrite Hn, orb_false_r in H. apply andb_true_iff in H as [L C].
  apply negb_true_iff in L. apply negb_true_iff, orb_false_iff in C as [C1 C2]. rewrite orb_false_r in C2. auto.
Qed.
Lemma route_read ms n : forwarded (OGetAttr n) = true ->
  route ms (OGetAttr n) = RSend {| rq_handler := "HANDLE_GETATTR"; rq_args := [WStr n] |} WNone.
Proof.
  intros H. destruct (String.eqb_spec n "__doc__") as [->|Hn]; [reflexivity|].
  destruct (forwarded_read n H Hn) as (L & C1 & C2). unfold route, getattribute_route. now rewrite L, C1, C2.
Qed.
Lemma fallback_read F n : forwarded (OGetAttr n) = true ->
  fallback F (OGetAttr n) = if f_getattr_repeats F && negb (String.eqb n "__doc__")
                            then Some {| rq_handler := "HANDLE_GETATTR"; rq_args := [WStr n] |} else None.
Proof.
  intros H. destruct (String.eqb_spec n "__doc__") as [->|Hn]; [now rewrite andb_false_r|].
  destruct (forwarded_read n H Hn) as (L & C1 & C2).
  assert (D : smem n deleted_attrs = false) by exact (smem_app_r n _ deleted_attrs L).
  unfold fallback, getattribute_route, getattr_route. rewrite L, C1, C2, D. now destruct (f_getattr_repeats F).
Qed.

Section Routing.
  Variable F : facts.
  Variable A : Type.
  Variable f : nat -> A.
  Variable truthy : A -> bool.
  Variable byval : A -> bool.

  Definition faithful (ms : list string) (o : op) : Prop :=
    match route ms o with
    | RSend rq _ => exists sv, serve_request F truthy byval (rqmap f rq) = Ok sv
                               /\ sv_act sv = direct truthy f o /\ sv_checks sv = direct_checks o
                               /\ sv_reflect sv = serve_reflect F byval f o
    | RNoMethod => exists d n k, o = OSpecial d n k /\ smem d ms = false /\ slookup base_methods d = None
    | _ => False
    end.

  Lemma base_methods_faithful :
    Forall (fun e => fst e <> "__cmp__" -> fst e <> "__exit__" -> forall ms nargs kw, synthesized ms (fst e) = false ->
                     well_formed (OSpecial (fst e) nargs kw) = true -> faithful ms (OSpecial (fst e) nargs kw)) base_methods.
  Proof.
    (* entry by entry: well_formed fixes the arity, the rest is evaluation of the two tables: __dir__, __hash__, __repr__,
       __str__ reach HANDLE_DIR/HASH/REPR/STR without argument, the six comparisons HANDLE_CMP with (other, name) *)
    repeat constructor; cbn [fst]; intros Hcmp Hexit ms nargs kw S Hw; try contradiction.
    all: unfold faithful, route; rewrite S.
    all: apply arity_check_true in Hw as [-> ->].
    all: cbv; eexists; (split; [reflexivity|]); repeat split; reflexivity.
  Qed.
  (* __exit__ alone depends on the tree: exit_ok asks that the class be delivered when there is one *)
  Lemma exit_faithful ms nargs kw : synthesized ms "__exit__" = false -> well_formed (OSpecial "__exit__" nargs kw) = true ->
    exit_ok F (truthy (f 0%nat)) (OSpecial "__exit__" nargs kw) = true -> faithful ms (OSpecial "__exit__" nargs kw).
  Proof.
    intros S Hw He. unfold faithful, route. rewrite S. apply arity_check_true in Hw as [-> ->].
    destruct F as [? delivers ? ?]. cbv in He |- *. eexists. split; [reflexivity|]. repeat split.
    now destruct (truthy (f 0%nat)), delivers.
  Qed.

  Theorem routing_faithful ms o :
    forwarded o = true -> well_formed o = true -> exit_ok F (truthy (f 0%nat)) o = true -> faithful ms o.
  Proof.
    destruct o as [n|n|n|d nargs kw|]; intros Hf Hw He; unfold faithful.
    - rewrite (route_read ms n Hf). eexists. split; [reflexivity|]. now repeat split.
    - unfold route, setattr_route. apply negb_true_iff in Hf. rewrite Hf. eexists. split; [reflexivity|]. now repeat split.
    - unfold route, delattr_route. apply negb_true_iff in Hf. rewrite Hf. eexists. split; [reflexivity|]. now repeat split.
    - destruct (slookup base_methods d) as [m|] eqn:B.
      + (* one of BaseNetref's own methods, never shadowed *)
        destruct (String.eqb_spec d "__cmp__") as [->|Hcmp]; [discriminate Hf|].
        apply slookup_in in B. pose proof (base_methods_not_shadowed ms d (in_map fst _ _ B)) as S.
        destruct (String.eqb_spec d "__exit__") as [->|Hexit]; [now apply exit_faithful|].
        now apply (proj1 (Forall_forall _ _) base_methods_faithful (d, m) B Hcmp Hexit).
      + (* any other name: forwarded only if it is not local, found only if the class synthesized it *)
        unfold forwarded in Hf. rewrite B, orb_false_r in Hf. apply negb_true_iff in Hf.
        unfold route, synthesized. rewrite B, Hf. cbn [class_factory_skips_local negb]. rewrite andb_true_r.
        destruct (smem d ms) eqn:Hms; [|exists d, nargs, kw; auto].
        destruct (special_not_local d nargs kw Hf) as [Hd Hwf].
        unfold direct_checks. rewrite !Hd. rewrite Hwf, smem_app in Hw. apply negb_true_iff, orb_false_iff in Hw as [Hs Ha].
        cbn [smem existsb] in Ha. rewrite orb_false_r in Ha. unfold make_method. rewrite Hs, Ha.
        destruct (String.eqb_spec d "__call__") as [->|_]; (eexists; split; [reflexivity|]; repeat split; cbn [sv_reflect serve_reflect]).
        * (* sv_reflect for __call__: it has no reflected name *)
          unfold reflect_for. now destruct (map f (positional nargs)) as [|x [|y l]].
        * (* sv_reflect for any other name: the handler's test for keyword arguments is no_kw_list *)
          now destruct kw.
    - eexists. split; [reflexivity|]. now repeat split.
  Qed.
End Routing.

Lemma getattr_twice F n : f_getattr_repeats F = true -> forwarded (OGetAttr n) = true -> n <> "__doc__" ->
  exists rq w, route [] (OGetAttr n) = RSend rq w /\ fallback F (OGetAttr n) = Some rq.
Proof.
  intros HF Hf Hn. apply String.eqb_neq in Hn. do 2 eexists. split; [now apply route_read|].
  now rewrite (fallback_read F n Hf), HF, Hn.
Qed.
Lemma fallback_same F ms o rq2 : fallback F o = Some rq2 -> forwarded o = true ->
  exists n, o = OGetAttr n /\ route ms o = RSend rq2 WNone /\ f_getattr_repeats F = true.
Proof.
  destruct o; try discriminate. intros H Hf. exists n. rewrite (fallback_read F n Hf) in H.
  destruct (f_getattr_repeats F); [|discriminate]. destruct (String.eqb n "__doc__"); [discriminate|].
  injection H as <-. split; [reflexivity|]. split; [now apply route_read|reflexivity].
Qed.

Lemma classic_permits_all checks : permitted conf_classic checks = true.
Proof.
  unfold permitted. apply forallb_forall. intros [p n] _. unfold check_one, check_attr. cbn.
  destruct p; reflexivity.
Qed.
(* for an object that has the name and no exposed_ twin of it, _check_attr lets the name through iff the permission is
   switched on and one of the four clauses allows the name *)
Lemma permitted_one c p n : permitted c [(p, n)] = lookup_perm (pc_sw c) p && spec_allowed (pc_sw c) (pc_nview c n).
Proof.
  unfold permitted, check_one, check_attr. cbn [forallb fst snd plain_ov has_twin has_name]. cbv zeta.
  fold (spec_allowed (pc_sw c) (pc_nview c n)). rewrite andb_false_r.
  now destruct (lookup_perm (pc_sw c) p), (spec_allowed (pc_sw c) (pc_nview c n)).
Qed.
Lemma permitted_default_get n : permitted conf_default [(PGet, n)] = sprefix "exposed_" n || smem n default_safe_attrs.
Proof. rewrite permitted_one. cbn -[smem sprefix default_safe_attrs]. apply orb_false_r. Qed.
Lemma permitted_public_get n :
  permitted conf_public [(PGet, n)] = sprefix "exposed_" n || smem n default_safe_attrs || negb (sprefix "_" n).
Proof. rewrite permitted_one. reflexivity. Qed.

Lemma listed_specials_safe : forallb (fun d => smem d default_safe_attrs) listed_specials = true.
Proof. vm_compute. reflexivity. Qed.
Lemma unlisted_specials_refused : forallb (fun d => negb (permitted conf_default [(PGet, d)]) && negb (permitted conf_public [(PGet, d)]))
                                          unlisted_specials = true.
Proof. vm_compute. reflexivity. Qed.

Lemma direct_checks_special d n k : direct_checks (OSpecial d n k) = [] \/ direct_checks (OSpecial d n k) = [(PGet, d)].
Proof.
  unfold direct_checks, direct. destruct (String.eqb_spec d "__exit__") as [->|_]; [now right|].
  destruct (String.eqb d "__call__"); [now left|]. destruct (smem d cmp_names); [now right|].
  destruct (String.eqb d "__repr__"); [now left|]. destruct (String.eqb d "__str__"); [now left|].
  destruct (String.eqb d "__hash__"); [now left|]. destruct (String.eqb d "__dir__"); [now left|now right].
Qed.

Lemma safe_special_permitted d n k : smem d default_safe_attrs = true ->
  permitted conf_default (direct_checks (OSpecial d n k)) = true /\ permitted conf_public (direct_checks (OSpecial d n k)) = true
  /\ permitted conf_classic (direct_checks (OSpecial d n k)) = true.
Proof.
  intros Hs. split; [|split; [|apply classic_permits_all]]; destruct (direct_checks_special d n k) as [-> | ->]; try reflexivity.
  - rewrite permitted_default_get, Hs. apply orb_true_r.
  - rewrite permitted_public_get, Hs, orb_true_r. reflexivity.
Qed.

Lemma results_all_map_ok {A B} (h : A -> result B) (k : A -> B) l : (forall x, h x = Ok (k x)) -> results_all (map h l) = Ok (map k l).
Proof. intros H. induction l as [|a l IH]; [reflexivity|]. cbn [map results_all]. now rewrite H, IH. Qed.

Section WorldP.
  Variable imm : Type.
  Variable truthy_imm : imm -> bool.
  Variable is_ni : imm -> bool.
  Variable imm_bool : bool -> imm.
  Variable heap : Type.
  Variable apply : act (val imm) -> heap -> oid -> result (val imm) * heap.
  Variable methods : oid -> list string.
  Variable no_method : op -> exn.
  Variable conf : pconf.
  Variable F : facts.

  Notation value := (val imm).
  Notation Truthy := (truthy imm truthy_imm).
  Notation Byval := (byval imm).
  Notation ResNi := (res_ni imm is_ni).
  Notation Tstep := (t_step imm truthy_imm is_ni imm_bool heap apply methods no_method).
  Notation Pstep := (p_step imm truthy_imm is_ni imm_bool heap apply methods no_method conf F).
  Notation Trun := (t_run imm truthy_imm is_ni imm_bool heap apply methods no_method).
  Notation Prun := (p_run imm truthy_imm is_ni imm_bool heap apply methods no_method conf F).
  Notation Serves := (owner_serves imm truthy_imm is_ni heap apply conf F).
  Notation GiveUp := (give_up imm imm_bool).

  (* a read that failed with AttributeError fails the same way, without further effect, when asked again *)
  Definition failing_reads_repeatable : Prop :=
    forall n h o h', apply (AGetAttr n) h o = (Raise AttributeError, h') -> apply (AGetAttr n) h' o = (Raise AttributeError, h').
  Definition reads_ok : Prop := f_getattr_repeats F = false \/ failing_reads_repeatable.
  (* no value's reflected method accepts one of the objects: it declines, without effect (true of lists, dicts, files ...;
     false of an int subclass, which float.__radd__ accepts) *)
  Definition reflection_inert : Prop :=
    forall rd a h o, exists v, apply (AReflected rd (VImm imm a)) h o = (Ok (VImm imm v), h) /\ is_ni v = true.
  Definition reflection_ok : Prop := f_reflects F = true \/ reflection_inert.

  Definition inv (tw : tworld heap) (pw : pworld heap) : Prop :=
    tw_heap heap tw = pw_heap heap pw /\ tw_slots heap tw = pw_slots heap pw
    /\ forall o, In o (pw_slots heap pw) -> has_oid o (pw_exported heap pw) = true.

  Lemma has_oid_in o l : has_oid o l = true <-> In o l.
  Proof. apply existsb_eqb_in, Nat.eqb_eq. Qed.
  Lemma reply_id (r : result value) : reply imm r = r.
  Proof. destruct r as [[v|o|e]| | |]; reflexivity. Qed.

  Lemma operands_unbox slots ex ops : (forall o, In o slots -> has_oid o ex = true) ->
    forall vs, all_some (map (t_operand imm slots) ops) = Some vs ->
    forall i, unbox_s imm ex (box_c imm (nth_val imm vs i)) = Ok (nth_val imm vs i).
  Proof.
    intros Hex. induction ops as [|a ops IH]; intros vs H i.
    - injection H as <-. now destruct i.
    - cbn [map all_some] in H. destruct (t_operand imm slots a) as [v|] eqn:Ea; [|discriminate].
      destruct (all_some (map (t_operand imm slots) ops)) as [vs'|]; [|discriminate].
      injection H as <-. destruct i as [|i]; [|exact (IH vs' eq_refl i)].
      unfold nth_val. cbn [nth]. destruct a as [x|j|e]; cbn in Ea; try (now injection Ea as <-).
      destruct (nth_error slots j) as [o|] eqn:Ej; [|discriminate]. injection Ea as <-. cbn.
      now rewrite (Hex o (nth_error_In _ _ Ej)).
  Qed.
  Lemma first_truthy_ok slots ops vs : all_some (map (t_operand imm slots) ops) = Some vs ->
    Truthy (nth_val imm vs 0) = first_truthy imm truthy_imm ops.
  Proof.
    destruct ops as [|a ops]; intros H.
    - now injection H as <-.
    - cbn [map all_some] in H. destruct (t_operand imm slots a) as [v|] eqn:Ea; [|discriminate].
      destruct (all_some (map (t_operand imm slots) ops)) as [vs'|]; [|discriminate]. injection H as <-.
      destruct a as [x|j|e]; cbn in Ea; try (now injection Ea as <-).
      destruct (nth_error slots j); [|discriminate]. now injection Ea as <-.
  Qed.

  Lemma traverse_ok ex (g : nat -> value) (rq : request nat) :
    (forall i, unbox_s imm ex (box_c imm (g i)) = Ok (g i)) ->
    rqtraverse (unbox_s imm ex) (rqmap (box_c imm) (rqmap g rq)) = Ok (rqmap g rq).
  Proof.
    intros Hg. unfold rqtraverse, rqmap. cbn [rq_args rq_handler]. rewrite !map_map.
    rewrite (results_all_map_ok _ (wmap g)); [reflexivity|].
    intros [s|a|l|l]; cbn [wmap wtraverse]; rewrite ?map_map.
    - reflexivity.
    - now rewrite Hg.
    - now rewrite (results_all_map_ok _ g).
    - cbn [fst snd]. rewrite (results_all_map_ok _ (fun p => (fst p, g (snd p)))); [reflexivity|]. intros x. now rewrite Hg.
  Qed.

  (* what the owner applies for operation p with operands g: the operation itself, then -- on a tree with f_reflects, after
     NotImplemented -- the operand's reflected method *)
  Definition operate (g : nat -> value) (p : op) (h : heap) (o : oid) : result value * heap :=
    let '(r1, h1) := apply (direct Truthy g p) h o in
    match serve_reflect F Byval g p with
    | Some (rd, a) => if ResNi r1 then apply (AReflected rd a) h1 o else (r1, h1)
    | None => (r1, h1)
    end.

  Lemma owner_serves_faithful h ex o (g : nat -> value) p rq w :
    has_oid o ex = true -> (forall i, unbox_s imm ex (box_c imm (g i)) = Ok (g i)) ->
    route (methods o) p = RSend rq w -> faithful F value g Truthy Byval (methods o) p ->
    Serves h ex o (rqmap g rq) = if permitted conf (direct_checks p) then operate g p h o else (Raise AttributeError, h).
  Proof.
    intros Ho Hg R Hf. unfold faithful in Hf. rewrite R in Hf. unfold operate. destruct Hf as (sv & Hsv & <- & <- & <-).
    unfold owner_serves. cbn [unbox_s]. now rewrite Ho, (traverse_ok _ _ _ Hg), Hsv.
  Qed.

  Lemma failing_read_again g n h o h1 : reads_ok -> f_getattr_repeats F = true ->
    operate g (OGetAttr n) h o = (Raise AttributeError, h1) -> operate g (OGetAttr n) h1 o = (Raise AttributeError, h1).
  Proof.
    intros [Hrep|Hrep] HF; [congruence|]. unfold operate. cbn [direct serve_reflect].
    destruct (apply (AGetAttr n) h o) as [r h'] eqn:E. intros [= -> ->]. now rewrite (Hrep _ _ _ _ E).
  Qed.

  (* Python's fallback repeats the request of a read that failed with AttributeError: it changes nothing when the repeated
     request, which is the first one again, gives what the first gave.  X is how the owner answers a request after the first:
     for a permitted step that is [operate] on the heap the first left, for a refused one only the refusal is known *)
  Lemma fallback_same_result ms p rq w (r1 : result value) (h1 : heap) (X : request nat -> result value * heap) :
    forwarded p = true -> route ms p = RSend rq w ->
    (forall n, p = OGetAttr n -> f_getattr_repeats F = true -> r1 = Raise AttributeError -> X rq = (r1, h1)) ->
    match r1, fallback F p with
    | Raise AttributeError, Some rq2 => X rq2
    | _, _ => (r1, h1)
    end = (r1, h1).
  Proof.
    intros Hfw R HX. destruct (fallback F p) as [rq2|] eqn:Efb; [|now destruct r1 as [|[]| |]].
    destruct (fallback_same F ms _ _ Efb Hfw) as (n & Hp & R' & HF). rewrite R in R'. injection R' as <- _.
    destruct r1 as [|[]| |]; try reflexivity. now apply (HX n).
  Qed.

  Lemma send_finds_slot o p rq w : route (methods o) p = RSend rq w -> finds_slot methods o p = true.
  Proof.
    destruct p; try reflexivity. unfold route, finds_slot, has_method, always_present, synthesized.
    destruct (smem d (methods o)); [intros _; apply orb_true_r|]. cbn [andb].
    destruct (slookup base_methods d) as [[h a w']|]; [reflexivity|discriminate].
  Qed.

  Lemma has_oid_export x l (r : result value) :
    has_oid x (export imm l r) = has_oid x l || match r with Ok (VRef _ o) => Nat.eqb x o | _ => false end.
  Proof.
    destruct r as [[v|o|e]| | |]; cbn [export]; try (now rewrite orb_false_r).
    destruct (has_oid o l) eqn:E.
    - destruct (Nat.eqb_spec x o) as [->|]; [now rewrite E|now rewrite orb_false_r].
    - unfold has_oid. rewrite existsb_app. cbn [existsb]. now rewrite orb_false_r.
  Qed.
  Lemma push_give_up slots d : push_ref imm slots (GiveUp d) = slots.
  Proof. unfold give_up. destruct (String.eqb d "__eq__"); [reflexivity|]. destruct (String.eqb d "__ne__"); reflexivity. Qed.
  (* the worlds after a step that gave r to both callers, the owner having sent r2: r itself, or a NotImplemented that the
     caller's interpreter turned into give_up *)
  Lemma inv_step h slots ex (r r2 : result value) :
    (forall o, In o slots -> has_oid o ex = true) -> r = r2 \/ (exists d, r = GiveUp d) ->
    inv {| tw_heap := h; tw_slots := push_ref imm slots r |}
        {| pw_heap := h; pw_exported := export imm ex r2; pw_slots := push_ref imm slots r |}.
  Proof.
    intros Hex Hr. split; [reflexivity|]. split; [reflexivity|]. cbn [pw_slots pw_exported]. intros o Ho. rewrite has_oid_export.
    destruct Hr as [->|[d ->]].
    - (* push_ref is export on the list of slots *)
      apply has_oid_in in Ho. change (push_ref imm slots r2) with (export imm slots r2) in Ho. rewrite has_oid_export in Ho.
      apply orb_true_iff in Ho as [Ho|Ho]; [apply has_oid_in, Hex in Ho|]; rewrite Ho; auto using orb_true_r.
    - rewrite push_give_up in Ho. now rewrite (Hex o Ho).
  Qed.

  Lemma reflect_cases p vs :
    (protocol_operand imm p vs = None /\ serve_reflect F Byval (nth_val imm vs) p = None)
    \/ exists d rd x, protocol_operand imm p vs = Some (d, rd, VImm imm x)
                      /\ serve_reflect F Byval (nth_val imm vs) p = if f_reflects F then Some (rd, VImm imm x) else None.
  Proof.
    destruct p as [| | |d nargs kw|]; try (left; split; reflexivity). cbn [protocol_operand serve_reflect]. unfold reflect_for.
    destruct (map (nth_val imm vs) (positional nargs)) as [|x [|y l]]; try (left; split; reflexivity).
    destruct (reflected_of d) as [rd|]; [|left; split; reflexivity].
    destruct (no_kw_list kw), x as [v|o|e], (f_reflects F); try (left; split; reflexivity).
    all: right; exists d, rd, v; split; reflexivity.
  Qed.

  (* the left side is what t_step applies: the binary-operator protocol completed by the interpreter that holds the target;
     the right side what the owner does, followed by what the caller's interpreter makes of the reply *)
  Lemma protocol_by_operate p vs h o r2 h2 : reflection_ok -> operate (nth_val imm vs) p h o = (r2, h2) ->
    let r := match protocol_operand imm p vs with
             | Some (d, _, _) => if ResNi r2 then GiveUp d else r2
             | None => r2
             end in
    (let '(r1, h1) := apply (direct Truthy (nth_val imm vs) p) h o in
     match protocol_operand imm p vs with
     | Some (d, rd, a) =>
         if ResNi r1 then
           let '(r2, h2) := apply (AReflected rd a) h1 o in
           (if ResNi r2 then GiveUp d else r2, h2)
         else (r1, h1)
     | None => (r1, h1)
     end) = (r, h2)
    /\ (r = r2 \/ exists d, r = GiveUp d).
  Proof.
    intros Hrefl. unfold operate.
    destruct (apply (direct Truthy (nth_val imm vs) p) h o) as [r1 h1].
    destruct (reflect_cases p vs) as [[-> ->]|(d & rd & x & -> & ->)]; [intros [= <- <-]; auto|].
    destruct (ResNi r1) eqn:N1; [|destruct (f_reflects F); intros [= <- <-]; rewrite N1; auto].
    destruct (f_reflects F) eqn:HF.
    - intros ->. destruct (ResNi r2); eauto.
    - intros [= <- <-]. rewrite N1. destruct Hrefl as [Hrefl|Hrefl]; [congruence|].
      destruct (Hrefl rd x h1 o) as (v & -> & Hv). cbn [res_ni]. rewrite Hv. eauto.
  Qed.

  Lemma step_faithful_and_served slots ex s o vs :
    (forall x, In x slots -> has_oid x ex = true) ->
    nth_error slots (st_target imm s) = Some o -> all_some (map (t_operand imm slots) (st_operands imm s)) = Some vs ->
    forwarded (st_op imm s) = true -> well_formed (st_op imm s) = true ->
    exit_ok F (first_truthy imm truthy_imm (st_operands imm s)) (st_op imm s) = true ->
    faithful F value (nth_val imm vs) Truthy Byval (methods o) (st_op imm s)
    /\ forall h rq w, route (methods o) (st_op imm s) = RSend rq w ->
         Serves h ex o (rqmap (nth_val imm vs) rq)
         = if permitted conf (direct_checks (st_op imm s)) then operate (nth_val imm vs) (st_op imm s) h o else (Raise AttributeError, h).
  Proof.
    intros Hex Eo Ev Hfw Hwf Hexit. rewrite <- (first_truthy_ok _ _ _ Ev) in Hexit.
    pose proof (routing_faithful F value (nth_val imm vs) Truthy Byval (methods o) _ Hfw Hwf Hexit) as Hfaith.
    split; [exact Hfaith|]. intros h rq w R.
    apply (owner_serves_faithful h ex o _ _ rq w); auto using (nth_error_In _ _ Eo), (operands_unbox _ _ _ Hex _ Ev).
  Qed.

  Lemma step_sim tw pw s : inv tw pw -> step_ok imm truthy_imm conf F s = true -> reads_ok -> reflection_ok ->
    match Tstep tw s, Pstep pw s with
    | Some (r, tw'), Some (r', pw') => r = r' /\ inv tw' pw'
    | None, None => True
    | _, _ => False
    end.
  Proof.
    (* same target and operands on both sides; the owner applies [operate], the repeated read changes nothing, and the
       caller's interpreter finishes the operator protocol the way the twin's does *)
    intros (Hh & Hs & Hex) Hok Hrep Hrefl. unfold t_step, p_step. rewrite <- Hs, <- Hh in *.
    destruct (nth_error (tw_slots heap tw) (st_target imm s)) as [o|] eqn:Eo; [|trivial].
    destruct (all_some (map (t_operand imm (tw_slots heap tw)) (st_operands imm s))) as [vs|] eqn:Ev; [|trivial].
    unfold step_ok, exit_class_ok in Hok. apply andb_true_iff in Hok as [Hok Hcls]. apply andb_true_iff in Hok as [Hok Hexit].
    apply andb_true_iff in Hok as [Hok Hperm]. apply andb_true_iff in Hok as [Hfw Hwf].
    destruct (step_faithful_and_served _ _ s o vs Hex Eo Ev Hfw Hwf Hexit) as [Hfaith Hserve]. unfold faithful in Hfaith.
    destruct (route (methods o) (st_op imm s)) as [rq w| | | |] eqn:R; try contradiction.
    - rewrite (send_finds_slot _ _ _ _ R). destruct (escapes_handler imm F s); [discriminate|].
      rewrite (Hserve _ _ _ eq_refl), Hperm.
      destruct (operate (nth_val imm vs) (st_op imm s) (tw_heap heap tw) o) as [r2 h2] eqn:Eop.
      assert (Hagain : forall n, st_op imm s = OGetAttr n -> f_getattr_repeats F = true -> r2 = Raise AttributeError ->
                                 Serves h2 (pw_exported heap pw) o (rqmap (nth_val imm vs) rq) = (r2, h2)).
      { intros n Hp HF ->. rewrite (Hserve _ _ _ eq_refl), Hperm. rewrite Hp in *. exact (failing_read_again _ _ _ _ _ Hrep HF Eop). }
      rewrite (fallback_same_result (methods o) _ rq w r2 h2 _ Hfw R Hagain).
      rewrite reply_id. destruct (protocol_by_operate _ vs _ o _ _ Hrefl Eop) as [-> Hr].
      split; [reflexivity|]. now apply inv_step.
    - destruct Hfaith as (d & n & k & Hop & Hms & Hb).
      assert (Hfs : finds_slot methods o (st_op imm s) = false).
      { rewrite Hop. unfold finds_slot, has_method, always_present. now rewrite Hb, Hms. }
      rewrite Hfs. split; [reflexivity|]. destruct pw as [ph pe ps]. cbn in *. subst. repeat split; auto.
  Qed.

  Theorem run_sim steps : forall tw pw, inv tw pw -> forallb (step_ok imm truthy_imm conf F) steps = true -> reads_ok -> reflection_ok ->
    match Trun tw steps, Prun pw steps with
    | Some (rs, tw'), Some (rs', pw') => rs = rs' /\ inv tw' pw'
    | None, None => True
    | _, _ => False
    end.
  Proof.
    induction steps as [|s steps IH]; intros tw pw Hinv Hok Hrep Hrefl.
    - cbn. split; auto.
    - cbn [forallb] in Hok. apply andb_true_iff in Hok. destruct Hok as [Hs Hrest].
      cbn [t_run p_run]. pose proof (step_sim tw pw s Hinv Hs Hrep Hrefl) as H1.
      destruct (Tstep tw s) as [[r tw1]|]; destruct (Pstep pw s) as [[r' pw1]|]; try contradiction; [|trivial].
      destruct H1 as [<- Hinv1]. specialize (IH tw1 pw1 Hinv1 Hrest Hrep Hrefl).
      destruct (Trun tw1 steps) as [[rs tw2]|]; destruct (Prun pw1 steps) as [[rs' pw2]|]; try contradiction; [|trivial].
      destruct IH as [<- Hinv2]. split; auto.
  Qed.

  Lemma refused_unchanged pw s : (forall o, In o (pw_slots heap pw) -> has_oid o (pw_exported heap pw) = true) ->
    forwarded (st_op imm s) = true -> well_formed (st_op imm s) = true ->
    exit_ok F (first_truthy imm truthy_imm (st_operands imm s)) (st_op imm s) = true ->
    permitted conf (direct_checks (st_op imm s)) = false ->
    match Pstep pw s with
    | Some (r, pw') => (exists e, r = Raise e) /\ pw' = pw
    | None => True
    end.
  Proof.
    intros Hex Hfw Hwf Hexit Hperm. unfold p_step.
    destruct (nth_error (pw_slots heap pw) (st_target imm s)) as [o|] eqn:Eo; [|trivial].
    destruct (all_some (map (t_operand imm (pw_slots heap pw)) (st_operands imm s))) as [vs|] eqn:Ev; [|trivial].
    destruct (step_faithful_and_served _ _ s o vs Hex Eo Ev Hfw Hwf Hexit) as [Hfaith Hserve]. unfold faithful in Hfaith.
    destruct (route (methods o) (st_op imm s)) as [rq w| | | |] eqn:R; try contradiction.
    - destruct (escapes_handler imm F s); [split; [eexists; reflexivity|now destruct pw]|].
      assert (Hrefuse : forall h, Serves h (pw_exported heap pw) o (rqmap (nth_val imm vs) rq) = (Raise AttributeError, h)).
      { intros h. now rewrite (Hserve _ _ _ eq_refl), Hperm. }
      destruct (Serves (pw_heap heap pw) (pw_exported heap pw) o (rqmap (nth_val imm vs) rq)) as [r1 h1] eqn:E1.
      rewrite Hrefuse in E1. rewrite (fallback_same_result (methods o) _ rq w r1 h1 _ Hfw R) by (intros; rewrite Hrefuse; congruence).
      injection E1 as <- <-.
      destruct (protocol_operand imm (st_op imm s) vs) as [[[d rd] a]|]; (split; [eexists; reflexivity|now destruct pw]).
    - split; [eexists; reflexivity|now destruct pw].
  Qed.
End WorldP.

(* worlds on which a clause that depends on a fact of the tree fails without it (props/C02.v 2b', 2c, 2e);
   exit_told_type_error is such a run for 2b, which C02 states on the request instead *)

Definition w_apply_count (a : act (val unit)) (h : nat) (o : oid) : result (val unit) * nat :=
  match a with AGetAttr _ => (Raise AttributeError, S h) | _ => (Ok (VImm unit tt), h) end.
Definition w_step_read : step unit := {| st_target := 0; st_op := OGetAttr "flaky"; st_operands := [] |}.

Definition w_apply_log (a : act (val unit)) (h : list (told (val unit))) (o : oid) : result (val unit) * list (told (val unit)) :=
  match a with AExit t => (Ok (VImm unit tt), t :: h) | _ => (Ok (VImm unit tt), h) end.
Definition w_step_exit : step unit :=
  {| st_target := 0; st_op := OSpecial "__exit__" 3 []; st_operands := [PExc unit ValueError; PExc unit ValueError; PImm unit tt] |}.
Lemma exit_told_type_error F : f_ctxexit_delivers F = false ->
  let tw := {| tw_heap := []; tw_slots := [0%nat] |} in
  let pw := {| pw_heap := []; pw_exported := [0%nat]; pw_slots := [0%nat] |} in
  option_map (fun x => tw_heap _ (snd x))
             (t_run unit (fun _ => true) (fun _ => false) (fun _ => tt) _ w_apply_log (fun _ => ["__exit__"]) (fun _ => TypeError) tw [w_step_exit])
    = Some [TClass (VExc unit ValueError)] /\
  option_map (fun x => pw_heap _ (snd x))
             (p_run unit (fun _ => true) (fun _ => false) (fun _ => tt) _ w_apply_log (fun _ => ["__exit__"]) (fun _ => TypeError) conf_classic F pw [w_step_exit])
    = Some [TTypeError].
Proof.
  destruct F as [a b d c]. cbn [f_ctxexit_delivers]. intros ->. cbv zeta. split; reflexivity.
Qed.

Definition w_step_exit_base : step unit :=
  {| st_target := 0; st_op := OSpecial "__exit__" 3 []; st_operands := [PExc unit OtherError; PExc unit OtherError; PImm unit tt] |}.

(* a number-like target: values are numbers (None stands for NotImplemented); the object holds an integer, its own __add__
   declines anything but integers below 100, while the reflected method of a "float" (>= 100) accepts it: MyInt(3) + 5.0 *)
Definition w_apply_num (a : act (val (option nat))) (h : nat) (o : oid) : result (val (option nat)) * nat :=
  match a with
  | ACallAttr "__add__" [VImm _ (Some n)] [] => (Ok (VImm _ (if Nat.ltb n 100 then Some (h + n)%nat else None)), h)
  | ATypeCall "__eq__" (VImm _ (Some n)) => (Ok (VImm _ (if Nat.ltb n 100 then Some (if Nat.eqb h n then 1 else 0)%nat else None)), h)
  | AReflected "__radd__" (VImm _ (Some n)) => (Ok (VImm _ (Some (n + h)%nat)), h)
  | AReflected "__eq__" (VImm _ (Some n)) => (Ok (VImm _ (Some (if Nat.eqb (n - 100) h then 1 else 0)%nat)), h)
  | _ => (Raise TypeError, h)
  end.
Definition w_ni (v : option nat) : bool := match v with None => true | _ => false end.
Definition w_bool (b : bool) : option nat := Some (if b then 1 else 0)%nat.
Definition w_steps_num : list (step (option nat)) :=
  [ {| st_target := 0; st_op := OSpecial "__add__" 1 []; st_operands := [PImm _ (Some 5%nat)] |};       (* x + 5   : the target's own method *)
    {| st_target := 0; st_op := OSpecial "__add__" 1 []; st_operands := [PImm _ (Some 105%nat)] |};     (* x + 5.0 : declined, reflected *)
    {| st_target := 0; st_op := OSpecial "__eq__" 1 []; st_operands := [PImm _ (Some 103%nat)] |} ].    (* x == 3.0 *)

Section BuffP.
  Variable A : Type.
  Open Scope Z_scope.

  Lemma next_count_pos count factor maxc : 1 <= count -> 1 <= factor -> 1 <= maxc -> 1 <= next_count count factor maxc.
  Proof. unfold next_count. intros. apply Z.min_glb; nia. Qed.

  Lemma buff_loop_complete factor maxc : 1 <= factor -> 1 <= maxc ->
    forall fuel (xs : list A) count, 1 <= count -> (List.length xs < fuel)%nat ->
    exists cs, buff_loop A fuel count factor maxc xs = Ok (xs, [], cs) /\ schedule count factor maxc cs
               /\ Forall (fun c => 1 <= c) cs /\ (List.length cs <= S (List.length xs))%nat.
  Proof.
    intros Hf Hm. induction fuel as [|fuel IH]; intros xs count Hc Hlen; [lia|].
    cbn [buff_loop]. unfold islice. destruct (Z.ltb_spec count 0) as [Hneg|_]; [lia|]. cbn [bind fst snd].
    destruct (Z.to_nat count) as [|k] eqn:Ek; [lia|].
    destruct xs as [|a xs].
    - cbn. exists [count]. repeat split; auto.
    - cbn [firstn skipn]. cbn [List.length] in Hlen.
      assert (Hrest : (List.length (skipn k xs) < fuel)%nat).
      { pose proof (skipn_length k xs). lia. }
      destruct (IH (skipn k xs) (next_count count factor maxc) (next_count_pos _ _ _ Hc Hf Hm) Hrest) as (cs & E & Hs & Hp & Hl).
      rewrite E. cbn [bind fst snd]. exists (count :: cs).
      split; [now rewrite <- app_comm_cons, firstn_skipn|]. split; [cbn; auto|]. split; [constructor; auto|].
      cbn [List.length]. pose proof (skipn_length k xs). lia.
  Qed.

  Theorem buffiter_exact chunk maxc factor (xs : list A) : 1 <= chunk -> 1 <= factor -> 1 <= maxc ->
    exists cs, buffiter A chunk maxc factor xs = Ok (xs, [], cs) /\ schedule chunk factor maxc cs
               /\ Forall (fun c => 1 <= c) cs /\ (List.length cs <= S (List.length xs))%nat.
  Proof.
    intros Hc Hf Hm. unfold buffiter. destruct (Z.ltb_spec factor 1); [lia|].
    apply buff_loop_complete; auto.
  Qed.
End BuffP.

Section ClassByName.
  Variable cls : Type.
  Variable name_of : cls -> string.             (* module-qualified name *)
  Variable callers : string -> option cls.      (* what the caller finds under a name (sys.modules) *)
  (* the answer of a class query for a target of class t, when the caller has a class of that name *)
  Definition class_query_by_name (t : cls) : option cls := callers (name_of t).
End ClassByName.
