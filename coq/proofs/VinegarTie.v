(* Tie between the generated facts of rpyc/core/vinegar.py + the exception plumbing of rpyc/core/protocol.py
   (gen/Gen_vinegar.v, regenerated on every run) and what model/Vinegar.v uses. *)
From V Require Import lib.Base model.Vinegar gen.Gen_vinegar gen.Gen_consts.
From Coq Require Import String.
Local Open Scope string_scope.

(* load: the guarded import and the class-resolution ladder are the programs the model interprets *)
Lemma tie_import_guard : Gen_vinegar.load_import_guard = Vinegar.import_guard.
Proof. reflexivity. Qed.
Lemma tie_ladder : Gen_vinegar.load_ladder = Vinegar.resolution_prog.
Proof. reflexivity. Qed.
Lemma tie_load_guards : Gen_vinegar.load_class_guard = true /\ Gen_vinegar.load_instantiates_with_new_only = true.
Proof. split; reflexivity. Qed.
Lemma tie_fast_const : Gen_vinegar.load_fast_path_const = "EXC_STOP_ITERATION" /\ Gen_consts.EXC_STOP_ITERATION = Vinegar.EXC_STOP.
Proof. split; reflexivity. Qed.
Lemma tie_exceptions_module : txt Gen_vinegar.exceptions_module_name = Vinegar.BUILTINS.
Proof. reflexivity. Qed.

(* dump: markers, skipped names, normalisation rule, record layout *)
Lemma tie_denied : txt Gen_vinegar.dump_denied_tb = Vinegar.DENIED_TB /\ txt Gen_vinegar.dump_denied_ver = Vinegar.DENIED_VER
  /\ txt Gen_vinegar.load_denied_ver = Vinegar.DENIED_VER.
Proof. repeat split. Qed.
Lemma tie_names : txt Gen_vinegar.dump_args_name = Vinegar.ARGS /\ txt Gen_vinegar.dump_version_attr = Vinegar.REMOTE_VERSION
  /\ txt Gen_vinegar.load_version_attr = Vinegar.REMOTE_VERSION /\ map txt Gen_vinegar.dump_ignored_attrs = Vinegar.IGNORED_ATTRS
  /\ txt Gen_vinegar.dump_private_prefix = [95%N].
Proof. repeat split. Qed.
Lemma tie_norm : Gen_vinegar.dump_norm_is_dumpable_or_repr = true.
Proof. reflexivity. Qed.
Lemma tie_record : Gen_vinegar.dump_record_fields = ["typ.__module__"; "typ.__name__"; "args"; "attrs"; "tbtext"].
Proof. reflexivity. Qed.

(* protocol: each switch reaches dump/load under its own name; defaults; what is re-raised locally *)
Lemma tie_box : Gen_vinegar.box_exc_map =
  [("include_local_traceback", "include_local_traceback"); ("include_local_version", "include_local_version")].
Proof. reflexivity. Qed.
Lemma tie_unbox : Gen_vinegar.unbox_exc_map =
  [("import_custom_exceptions", "import_custom_exceptions"); ("instantiate_custom_exceptions", "instantiate_custom_exceptions");
   ("instantiate_oldstyle_exceptions", "instantiate_oldstyle_exceptions")].
Proof. reflexivity. Qed.
Lemma tie_defaults : Gen_vinegar.default_flags =
  [("include_local_traceback", true); ("include_local_version", true); ("instantiate_custom_exceptions", false);
   ("import_custom_exceptions", false); ("instantiate_oldstyle_exceptions", false);
   ("propagate_SystemExit_locally", false); ("propagate_KeyboardInterrupt_locally", true)].
Proof. reflexivity. Qed.
Lemma tie_routed : Gen_vinegar.routed_locally =
  [("SystemExit", "propagate_SystemExit_locally"); ("KeyboardInterrupt", "propagate_KeyboardInterrupt_locally")]
  /\ map (fun p => txt (fst p)) Gen_vinegar.routed_locally = [Vinegar.SYSTEM_EXIT; Vinegar.KEYBOARD_INTERRUPT].
Proof. split; reflexivity. Qed.
Lemma tie_dispatch : Gen_vinegar.dispatch_exception_unboxes = true.
Proof. reflexivity. Qed.

(* the model parameters / default switches of the current tree *)
Definition Pgen : vparams :=
  {| fast_noargs_only := Gen_vinegar.fast_path_noargs_only; skip_callables := Gen_vinegar.dump_skips_callables |}.
Definition flag (k : string) : bool :=
  match find (fun p => String.eqb (fst p) k) Gen_vinegar.default_flags with Some p => snd p | None => false end.
Definition default_rflags : rflags :=
  {| import_custom := flag "import_custom_exceptions"; inst_custom := flag "instantiate_custom_exceptions";
     inst_oldstyle := flag "instantiate_oldstyle_exceptions" |}.
Definition default_sflags : sflags :=
  {| incl_tb := flag "include_local_traceback"; incl_ver := flag "include_local_version";
     prop_sysexit := flag "propagate_SystemExit_locally"; prop_kbdint := flag "propagate_KeyboardInterrupt_locally" |}.
Lemma default_rflags_safe : import_custom default_rflags = false /\ inst_custom default_rflags = false.
Proof. split; reflexivity. Qed.
Definition local_major_gen : text := txt Gen_vinegar.version_major.
(* how the current tree reads a class out of an already imported module (see Vinegar.lookup_mode) *)
Definition Mgen : lookup_mode := Gen_vinegar.load_lookup_mode.
(* does a failure while rebuilding a response reach the request it answers (_dispatch_response) or escape _dispatch? *)
Definition Dgen : bool := Gen_vinegar.dispatch_delivers_rebuild_failure.

(* the sender's fallback: _send_exc reports the failure of dump/encode of the exception's own payload instead (exact form) *)
Lemma tie_send_exc : Gen_vinegar.send_exc_reports_dump_failure = true.
Proof. reflexivity. Qed.
(* Derived.__str__ appends REMOTE_LINE.format(n) + _remote_tb: the constants *)
Definition nl : string := String (Ascii.Ascii false true false true false false false false) EmptyString.
Lemma tie_remote_line :
  Gen_vinegar.remote_line_start = (nl ++ nl ++ "========= Remote Traceback ")%string /\
  Gen_vinegar.remote_line_end = (" =========" ++ nl)%string /\ Gen_vinegar.remote_line_format = "{0}({{}}){1}".
Proof. repeat split. Qed.
(* three facts the positive theorems of C09 are guarded by (4b delivery, 3a lookup form, 1b fast path), all true of the tree as
   generated: asserted, so that reverting one of the three repairs breaks the tie *)
Lemma tie_repairs : Dgen = true /\ Mgen <> LkGetattr /\ fast_noargs_only Pgen = true.
Proof. repeat split. discriminate. Qed.
