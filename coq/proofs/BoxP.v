(* Proofs about model/Box.v: what reaches the peer, by value or by reference, and identity.

   _box decides by four cases (a plain value, an exact tuple, a netref of this connection, any other object);
   [shape_ind] is the induction that follows them.  Under the ladders of the source tree [box] is the pair of pure
   functions ([pkg_of], [regs_of]) and [unbox] of the package is [recv]; [transfer_spec] puts the two together with
   C04's round trip, and every statement about two parties is read off it. *)
From V Require Import lib.Base model.Brine proofs.BrineP model.Box.
Open Scope Z_scope.

Lemma cps_eqb_spec a : forall b, reflect (a = b) (cps_eqb a b).
Proof.
  induction a as [|x a IH]; intros [|y b]; simpl; try (constructor; congruence).
  destruct (N.eqb_spec x y), (IH b); constructor; congruence.
Qed.
Lemma idpack_eqb_spec a b : reflect (a = b) (idpack_eqb a b).
Proof.
  destruct a as [[n1 c1] o1], b as [[n2 c2] o2]. unfold idpack_eqb.
  destruct (cps_eqb_spec n1 n2), (Z.eqb_spec c1 c2), (Z.eqb_spec o1 o2); constructor; congruence.
Qed.
Lemma idpack_eqb_refl a : idpack_eqb a a = true.
Proof. now destruct (idpack_eqb_spec a a). Qed.

Section Dict.
Context {A : Type}.
Implicit Types (t : list (idpack * A)) (k : idpack).

Lemma lookup_update k k' a t : lookup k' (update k a t) = if idpack_eqb k' k then Some a else lookup k' t.
Proof.
  induction t as [|[k2 a2] t IH]; simpl; [reflexivity|].
  destruct (idpack_eqb_spec k k2) as [<-|N]; simpl; [now destruct (idpack_eqb k' k)|]. rewrite IH.
  destruct (idpack_eqb_spec k' k) as [->|_]; [|reflexivity]. now destruct (idpack_eqb_spec k k2).
Qed.
Lemma lookup_remove k k' t : lookup k' (remove k t) = if idpack_eqb k' k then None else lookup k' t.
Proof.
  induction t as [|[k2 a2] t IH]; simpl; [now destruct (idpack_eqb k' k)|].
  destruct (idpack_eqb_spec k k2) as [<-|N]; simpl; rewrite IH; [now destruct (idpack_eqb k' k)|].
  destruct (idpack_eqb_spec k' k) as [->|_]; [|reflexivity]. now destruct (idpack_eqb_spec k k2).
Qed.
Lemma has_lookup k t : has k t = true -> exists a, lookup k t = Some a.
Proof. unfold has. destruct (lookup k t); [eauto|discriminate]. Qed.
End Dict.

Lemma forallb_map_In {A B} (Q : B -> bool) (f : A -> B) l :
  (forall y, In y l -> Q (f y) = true) -> forallb Q (map f l) = true.
Proof. intros H. apply forallb_forall. intros p Hp. apply in_map_iff in Hp as (y & <- & Hy). auto. Qed.
(* RefCountingColl.add keeps what is there, and the object of a slot never changes *)
Lemma lookup_coll_add k k' obj t : lookup k' (coll_add k obj t) =
  if idpack_eqb k' k then Some (match lookup k t with Some (o, c) => (o, c + 1) | None => (obj, 0) end) else lookup k' t.
Proof. unfold coll_add. destruct (lookup k t) as [[o c]|]; apply lookup_update. Qed.
Lemma has_coll_add k k' obj t : has k' (coll_add k obj t) = idpack_eqb k' k || has k' t.
Proof. unfold has. rewrite lookup_coll_add. destruct (idpack_eqb k' k); [now destruct (lookup k t) as [[? ?]|]|reflexivity]. Qed.

Section Reg.
Variable idp : pyval -> idpack.
Lemma has_register regs : forall t k, has k t = true \/ In k (map idp regs) -> has k (register idp regs t) = true.
Proof.
  induction regs as [|x regs IH]; intros t k H; simpl in *; [now destruct H|].
  apply IH. rewrite has_coll_add. destruct H as [->|[<-|H]].
  - left. apply orb_true_r.
  - left. now rewrite idpack_eqb_refl.
  - now right.
Qed.
Lemma register_keeps_obj regs : forall t k o c, lookup k t = Some (o, c) ->
  exists c', lookup k (register idp regs t) = Some (o, c') /\ c <= c'.
Proof.
  induction regs as [|x regs IH]; intros t k o c H; simpl.
  - exists c. split; auto; lia.
  - destruct (IH (coll_add (idp x) x t) k o (if idpack_eqb k (idp x) then c + 1 else c)) as (c' & E & L).
    { rewrite lookup_coll_add. destruct (idpack_eqb_spec k (idp x)) as [->|_]; [now rewrite H|exact H]. }
    exists c'. split; [exact E|]. destruct (idpack_eqb k (idp x)); lia.
Qed.
(* the key of a slot is the id pack of its object: _handle_del finds the slot of an object by recomputing its pack *)
Definition keyed (t : list (idpack * (pyval * Z))) : Prop :=
  forall k o c, lookup k t = Some (o, c) -> idp o = k.
Lemma keyed_register regs t : keyed t -> keyed (register idp regs t).
Proof.
  apply fold_left_inv. intros t' u _ K k o c H. rewrite lookup_coll_add in H.
  destruct (idpack_eqb_spec k (idp u)) as [->|_]; [|exact (K _ _ _ H)].
  destruct (lookup (idp u) t') as [[o' c']|] eqn:E; injection H as <- _; [exact (K _ _ _ E)|reflexivity].
Qed.
End Reg.

Lemma accept_hit k n rc r : lookup k (cache r) = Some (n, rc) ->
  accept k r = (POther (proxy_name n), set_cache r (update k (n, rc + 1) (cache r))).
Proof. intros H. unfold accept. now rewrite H. Qed.
Lemma accept_miss k r : lookup k (cache r) = None ->
  accept k r = (POther (proxy_name (nlen (made r))),
                {| ltab := ltab r; made := made r ++ [k]; cache := update k (nlen (made r), 1) (cache r); mlog := mlog r |}).
Proof. intros H. unfold accept. now rewrite H. Qed.
Lemma accept_frame k r : ltab (snd (accept k r)) = ltab r /\ mlog (snd (accept k r)) = mlog r.
Proof. unfold accept. now destruct (lookup k (cache r)) as [[n rc]|]. Qed.
Lemma accept_cache k r : exists n rc, fst (accept k r) = POther (proxy_name n) /\
  lookup k (cache (snd (accept k r))) = Some (n, rc).
Proof.
  unfold accept. destruct (lookup k (cache r)) as [[n rc]|]; eexists _, _; cbn [fst snd cache set_cache];
    now rewrite lookup_update, idpack_eqb_refl.
Qed.

Lemma proxy_serial_name n : proxy_serial (POther (proxy_name n)) = Some n.
Proof.
  unfold proxy_serial, proxy_name. replace (2 * n + 1)%N with (1 + 2 * n)%N by lia.
  rewrite N.odd_add_mul_2. simpl. f_equal.
  replace (1 + 2 * n)%N with (1 + n * 2)%N by lia. rewrite N.div_add by lia. reflexivity.
Qed.
Lemma proxy_name_inj m n : POther (proxy_name m) = POther (proxy_name n) -> m = n.
Proof. unfold proxy_name. intros [= H]. lia. Qed.
Lemma proxy_name_fresh {A} (l : list A) m :
  nth_error l (N.to_nat m) <> None -> POther (proxy_name m) <> POther (proxy_name (nlen l)).
Proof.
  intros Hm E. apply proxy_name_inj in E as ->. apply Hm, nth_error_None. unfold nlen. rewrite Nat2N.id. lia.
Qed.
Lemma own_proxy_other mk v k : own_proxy mk v = Some k -> exists j, v = POther j.
Proof. destruct v; try discriminate. eauto. Qed.
Lemma own_proxy_in mk v k : own_proxy mk v = Some k -> In k mk.
Proof. unfold own_proxy. destruct (proxy_serial v); [|discriminate]. apply nth_error_In. Qed.

Definition is_tuple (v : pyval) : bool := match v with PTuple _ => true | _ => false end.
Definition byref (mk : list idpack) (v : pyval) : Prop :=
  dumpable v = false /\ is_tuple v = false /\ own_proxy mk v = None.

Local Arguments pair : simpl never.

Section Std.
Variable idp : pyval -> idpack.
Variable mk : list idpack.

Lemma box_cases v :
  (dumpable v = true) \/ (exists l, v = PTuple l /\ dumpable v = false) \/
  (exists k, own_proxy mk v = Some k) \/ (dumpable v = false /\ is_tuple v = false /\ own_proxy mk v = None).
Proof.
  destruct (dumpable v) eqn:D; [now left|right].
  destruct v; try (right; right; repeat split; reflexivity); try discriminate.
  - left. eauto.
  - right. destruct (own_proxy mk (POther k)) eqn:E; [left; eauto|right; auto].
Qed.

Lemma shape_ind (Q : pyval -> Prop) :
  (forall v, dumpable v = true -> Q v) ->
  (forall l, Forall Q l -> dumpable (PTuple l) = false -> Q (PTuple l)) ->
  (forall v k, own_proxy mk v = Some k -> Q v) ->
  (forall v, byref mk v -> Q v) ->
  forall v, Q v.
Proof.
  intros Hv Ht Ho Hr.
  assert (Leaf : forall v, is_tuple v = false -> Q v).
  { intros v T. destruct (box_cases v) as [D|[(l & -> & _)|[(k & O)|B]]].
    - now apply Hv.
    - discriminate.
    - now apply (Ho v k).
    - now apply Hr. }
  induction v using pyval_ind'; try (now apply Leaf).
  destruct (dumpable (PTuple l)) eqn:D; [now apply Hv|now apply Ht].
Qed.

Fixpoint pkg_of (v : pyval) : pyval :=
  if dumpable v then pair 1 v else
  match v with
  | PTuple l => pair 2 (PTuple (map pkg_of l))
  | _ => match own_proxy mk v with
         | Some k => pair 3 (pv_of_idpack k)
         | None => pair 4 (pv_of_idpack (idp v))
         end
  end.
Fixpoint regs_of (v : pyval) : list pyval :=
  if dumpable v then [] else
  match v with
  | PTuple l => flat_map regs_of l
  | _ => match own_proxy mk v with Some _ => [] | None => [v] end
  end.

(* the inner loop of the model's [box] is convertible with its [box_items]; so are the loops of [unbox] / [unbox_items]
   and of [recv] / [recv_items], which is what [unbox_tuple] and [recv_tuple] below rest on *)
Lemma box_tuple l : dumpable (PTuple l) = false ->
  box std_bladder idp mk (PTuple l) = do (ps, rs) <- box_items std_bladder idp mk l; Ok (pair 2 (PTuple ps), rs).
Proof. intros D. simpl in *. now rewrite D. Qed.

Theorem box_spec : forall v, box std_bladder idp mk v = Ok (pkg_of v, regs_of v).
Proof.
  (* by constructors and not by [shape_ind]: [box] runs the ladder, and [pick] computes only on a constructor *)
  induction v as [| | | | | | | | |l IHl|l _|v1 v2 v3 _ _ _|k] using pyval_ind'; try reflexivity.
  - destruct (dumpable (PTuple l)) eqn:D; [simpl in *; now rewrite D|].
    rewrite box_tuple by exact D. simpl pkg_of. simpl regs_of. simpl in D. rewrite D.
    enough (G : box_items std_bladder idp mk l = Ok (map pkg_of l, flat_map regs_of l)) by now rewrite G.
    clear D. induction IHl as [|y ys Hy _ IH]; cbn [box_items map flat_map]; [reflexivity|]. now rewrite Hy, IH.
  - cbn. now destruct (forallb dumpable l).
  - cbn. now destruct (dumpable v1 && dumpable v2 && dumpable v3).
  - cbn -[own_proxy]. now destruct (own_proxy mk (POther k)).
Qed.

(* what the receiving party ends up with: a pure specification *)
Fixpoint recv (v : pyval) (r : side) : pyval * side :=
  if dumpable v then (v, r) else
  match v with
  | PTuple l =>
      let (vs, r') := (fix go (l : list pyval) (r : side) : list pyval * side :=
                         match l with
                         | [] => ([], r)
                         | y :: ys => let (y', r1) := recv y r in let (ys', r2) := go ys r1 in (y' :: ys', r2)
                         end) l r in
      (PTuple vs, r')
  | _ => match own_proxy mk v with
         | Some k => (match lookup k (ltab r) with Some (o, _) => o | None => PNone end, r)
         | None => accept (idp v) r
         end
  end.
Fixpoint recv_items (l : list pyval) (r : side) : list pyval * side :=
  match l with
  | [] => ([], r)
  | y :: ys => let (y', r1) := recv y r in let (ys', r2) := recv_items ys r1 in (y' :: ys', r2)
  end.

Lemma regs_of_value v : dumpable v = true -> regs_of v = [].
Proof. intros D. destruct v; simpl in *; rewrite ?D; reflexivity || discriminate. Qed.
Lemma value_case v : dumpable v = true -> pkg_of v = pair 1 v /\ forall r, recv v r = (v, r).
Proof. intros D. destruct v; simpl in *; rewrite ?D; auto; discriminate. Qed.
Lemma own_case v k : own_proxy mk v = Some k ->
  pkg_of v = pair 3 (pv_of_idpack k) /\ regs_of v = [] /\
  forall r, recv v r = (match lookup k (ltab r) with Some (o, _) => o | None => PNone end, r).
Proof. intros O. destruct (own_proxy_other _ _ _ O) as [j ->]. simpl. rewrite O. auto. Qed.
Lemma ref_case v : byref mk v ->
  pkg_of v = pair 4 (pv_of_idpack (idp v)) /\ regs_of v = [v] /\ forall r, recv v r = accept (idp v) r.
Proof. intros (D & T & O). destruct v; try discriminate; simpl in *; rewrite ?D, ?O; auto. Qed.

Lemma pkg_of_tuple l : dumpable (PTuple l) = false -> pkg_of (PTuple l) = pair 2 (PTuple (map pkg_of l)).
Proof. intros D. simpl in *. now rewrite D. Qed.
Lemma regs_of_tuple l : regs_of (PTuple l) = flat_map regs_of l.
Proof.
  simpl. destruct (forallb dumpable l) eqn:D; [|reflexivity].
  induction l as [|y ys IH]; simpl in *; [reflexivity|]. apply andb_true_iff in D as [A B]. now rewrite regs_of_value, <- IH.
Qed.
Lemma recv_tuple l r : recv (PTuple l) r = let (vs, r') := recv_items l r in (PTuple vs, r').
Proof.
  simpl. destruct (forallb dumpable l) eqn:D; [|reflexivity].
  (* on plain items the loop does nothing *)
  replace (recv_items l r) with (l, r); [reflexivity|].
  induction l as [|y ys IH]; simpl in *; [reflexivity|]. apply andb_true_iff in D as [A B].
  destruct (value_case y A) as (_ & ->). now rewrite <- IH.
Qed.

(* the receiver's side after one registered object has arrived *)
Definition arrive (r : side) (u : pyval) : side := snd (accept (idp u) r).
Lemma recv_items_side l : Forall (fun v => forall r, snd (recv v r) = fold_left arrive (regs_of v) r) l ->
  forall r, snd (recv_items l r) = fold_left arrive (flat_map regs_of l) r.
Proof.
  induction 1 as [|y ys Hy _ IH]; intros r; cbn [recv_items flat_map]; [reflexivity|].
  rewrite fold_left_app, <- Hy, <- IH. now destruct (recv y r), (recv_items ys _).
Qed.
Lemma recv_side : forall v r, snd (recv v r) = fold_left arrive (regs_of v) r.
Proof.
  induction v as [v D|l IHl _|v k O|v B] using shape_ind; intros r.
  - destruct (value_case v D) as (_ & ->). now rewrite regs_of_value.
  - rewrite recv_tuple, regs_of_tuple, <- recv_items_side by exact IHl. now destruct (recv_items l r).
  - now destruct (own_case v k O) as (_ & -> & ->).
  - now destruct (ref_case v B) as (_ & -> & ->).
Qed.

Lemma arrive_ltab regs r : ltab (fold_left arrive regs r) = ltab r.
Proof. apply (fold_left_inv _ (fun r' => ltab r' = ltab r)); auto. intros r' u _ <-. apply accept_frame. Qed.
Lemma recv_ltab v r : ltab (snd (recv v r)) = ltab r.
Proof. rewrite recv_side. apply arrive_ltab. Qed.
Lemma recv_items_ltab l : forall r, ltab (snd (recv_items l r)) = ltab r.
Proof.
  intros r. rewrite recv_items_side by (apply Forall_forall; intros; apply recv_side). apply arrive_ltab.
Qed.

Lemma dumpable_idpack k : dumpable (pv_of_idpack k) = true.
Proof. destruct k as [[n c] o]. reflexivity. Qed.
Lemma dumpable_pair lab x : dumpable (pair lab x) = dumpable x.
Proof. unfold pair. simpl. apply andb_true_r. Qed.
Theorem pkg_dumpable : forall v, dumpable (pkg_of v) = true.
Proof.
  induction v as [v D|l IHl D|v k O|v B] using shape_ind.
  - destruct (value_case v D) as (-> & _). now rewrite dumpable_pair.
  - rewrite pkg_of_tuple, dumpable_pair by exact D. apply forallb_map_In. now apply Forall_forall.
  - destruct (own_case v k O) as (-> & _). now rewrite dumpable_pair, dumpable_idpack.
  - destruct (ref_case v B) as (-> & _). now rewrite dumpable_pair, dumpable_idpack.
Qed.

End Std.

Lemma wf_items P l : wf P (PTuple l) = true -> forallb (wf P) l = true.
Proof. cbn [wf]. intros H. now apply andb_true_iff in H. Qed.
Lemma wf_pair P lab x : is_imm lab = true -> wf P (pair lab x) = wf P x.
Proof. intros H. unfold pair. cbn [wf forallb]. rewrite H. simpl. now rewrite andb_true_r. Qed.
Lemma nosurr_pair lab x : nosurr (pair lab x) = nosurr x.
Proof. unfold pair. simpl. now rewrite andb_true_r. Qed.

(* the wire: C04's round trip *)
Lemma wire P pkg : wf P pkg = true -> dumpable pkg = true -> text_ok P pkg = true ->
  (do bytes <- dump P pkg; load P bytes) = Ok pkg.
Proof. intros W D T. destruct (load_dump P pkg W D T) as (bs & E & L). rewrite E. exact L. Qed.
Lemma wire_k {B} P pkg (K : pyval -> result B) : wf P pkg = true -> dumpable pkg = true -> text_ok P pkg = true ->
  (do bytes <- dump P pkg; do pkg' <- load P bytes; K pkg') = K pkg.
Proof. intros W D T. destruct (load_dump P pkg W D T) as (bs & E & L). rewrite E. cbn [bind]. now rewrite L. Qed.

Section UB.
Variable fok : idpack -> bool.
Notation unboxs := (unbox std_uladder fok).

Lemma unbox_value x s : unboxs (pair 1 x) s = Ok (x, s).
Proof. reflexivity. Qed.
Lemma unbox_tuple ps s :
  unboxs (pair 2 (PTuple ps)) s = do (vs, s') <- unbox_items std_uladder fok ps s; Ok (PTuple vs, s').
Proof. reflexivity. Qed.
Lemma unbox_local k s : unboxs (pair 3 (pv_of_idpack k)) s =
  match lookup k (ltab s) with Some (obj, _) => Ok (obj, s) | None => Raise KeyError end.
Proof. destruct k as [[n c] o]. reflexivity. Qed.
Lemma unbox_remote k s : unboxs (pair 4 (pv_of_idpack k)) s =
  match lookup k (cache s) with Some _ => Ok (accept k s) | None => if fok k then Ok (accept k s) else Raise KeyError end.
Proof. destruct k as [[n c] o]. reflexivity. Qed.
End UB.

(* the application only hands over proxies it still holds *)
Fixpoint held (s : side) (v : pyval) : bool :=
  if dumpable v then true else
  match v with
  | PTuple l => forallb (held s) l
  | _ => match proxy_serial v with
         | Some n => match nth_error (made s) (N.to_nat n) with
                     | Some k => match lookup k (cache s) with Some (n', _) => (n' =? n)%N | None => false end
                     | None => true      (* not a proxy of this connection: an ordinary object *)
                     end
         | None => true
         end
  end.
Lemma held_value s v : dumpable v = true -> held s v = true.
Proof. intros D. destruct v; simpl in *; rewrite ?D; reflexivity || discriminate. Qed.
Lemma held_items s l : held s (PTuple l) = true -> forallb (held s) l = true.
Proof.
  simpl. destruct (forallb dumpable l) eqn:D; auto. intros _.
  rewrite forallb_forall in D |- *. intros y Hy. apply held_value. auto.
Qed.
Lemma held_own s v k : own_proxy (made s) v = Some k -> held s v = true -> exists n rc, lookup k (cache s) = Some (n, rc).
Proof.
  intros O. destruct (own_proxy_other _ _ _ O) as [j ->]. cbn [held dumpable]. unfold own_proxy in O.
  destruct (proxy_serial (POther j)); [|discriminate]. rewrite O. destruct (lookup k (cache s)) as [[n' rc]|]; [eauto|discriminate].
Qed.
Lemma held_byref s v : byref (made s) v -> held s v = true.
Proof.
  intros (D & T & O). destruct v; try discriminate; try (simpl in *; rewrite D; reflexivity).
  cbn [held dumpable]. unfold own_proxy in O. destruct (proxy_serial (POther k)); auto. now rewrite O.
Qed.
Lemma held_ext s s' : made s = made s' -> cache s = cache s' -> forall v, held s v = held s' v.
Proof.
  intros M C. induction v as [| | | | | | | | |l IHl|l _|v1 v2 v3 _ _ _|k] using pyval_ind'; try reflexivity.
  - simpl. destruct (forallb dumpable l); auto. induction IHl as [|y ys Hy _ IH]; simpl; auto. now rewrite Hy, IH.
  - cbn [held]. now rewrite M, C.
Qed.

(* s is the sender, lt the receiver's table: it has the key of every proxy the sender's application can hold *)
Theorem unbox_pkg idp fok s lt :
  (forall k n rc, lookup k (cache s) = Some (n, rc) -> has k lt = true) ->
  forall v r, held s v = true -> ltab r = lt -> (forall u, In u (regs_of (made s) v) -> fok (idp u) = true) ->
  unbox std_uladder fok (pkg_of idp (made s) v) r = Ok (recv idp (made s) v r).
Proof.
  intros Lent. induction v as [v D|l IHl D|v k O|v B] using (shape_ind (made s)); intros r Hh L F.
  - destruct (value_case idp (made s) v D) as (-> & ->). apply unbox_value.
  - rewrite pkg_of_tuple, recv_tuple, unbox_tuple by exact D. apply held_items in Hh. rewrite regs_of_tuple in F.
    replace (unbox_items std_uladder fok (map (pkg_of idp (made s)) l) r) with (Ok (recv_items idp (made s) l r));
      [cbn [bind]; now destruct (recv_items idp (made s) l r)|].
    clear D. revert r L Hh F. induction IHl as [|y ys Hy _ IH]; intros r L Hh F; [reflexivity|].
    cbn [forallb] in Hh. apply andb_true_iff in Hh as [H1 H2]. cbn [map unbox_items recv_items flat_map] in *.
    rewrite Hy by auto using in_or_app. cbn [bind]. pose proof (recv_ltab idp (made s) y r) as L1.
    destruct (recv idp (made s) y r) as [y' r1]. cbn [snd] in L1. rewrite <- IH by (auto using in_or_app; congruence).
    now destruct (recv_items idp (made s) ys r1).
  - destruct (own_case idp (made s) v k O) as (-> & _ & ->). rewrite unbox_local, L.
    destruct (held_own _ _ _ O Hh) as (n & rc & C). apply Lent, has_lookup in C as [[o c] ->]. reflexivity.
  - destruct (ref_case idp (made s) v B) as (-> & E & ->). rewrite unbox_remote, F by (rewrite E; now left).
    now destruct (lookup _ _).
Qed.

Lemma set_ltab_id s : set_ltab s (ltab s) = s.
Proof. now destruct s. Qed.
Lemma put2_get from w : put2 from (get w from) (get w (negb from)) = w.
Proof. destruct w, from; reflexivity. Qed.
Lemma get_put2_same from s r : get (put2 from s r) from = s.
Proof. now destruct from. Qed.
Lemma get_put2_other from s r : get (put2 from s r) (negb from) = r.
Proof. now destruct from. Qed.

Section WorldP.
Variable P : bparams.
Variable idp : pyval -> idpack.
Hypothesis idp_wf : forall u, wf P (pv_of_idpack (idp u)) = true.
Hypothesis idp_text : forall u, text_ok P (pv_of_idpack (idp u)) = true.
Notation transfers := (transfer P std_bladder std_uladder idp).

Lemma text_ok_nosurr v : nosurr v = true -> text_ok P v = true.
Proof. unfold text_ok. intros ->. apply orb_true_r. Qed.

Definition keys_ok (mk : list idpack) : Prop :=
  forall k, In k mk -> wf P (pv_of_idpack k) = true /\ text_ok P (pv_of_idpack k) = true.
Theorem pkg_wf mk : keys_ok mk -> forall v, wf P v = true -> wf P (pkg_of idp mk v) = true.
Proof.
  intros K. induction v as [v D|l IHl D|v k O|v B] using (shape_ind mk); intros W.
  - destruct (value_case idp mk v D) as (-> & _). now rewrite wf_pair.
  - rewrite pkg_of_tuple, wf_pair by easy. cbn [wf] in *. apply andb_true_iff in W as [Wl Wi].
    unfold nlen in *. rewrite map_length, Wl. rewrite Forall_forall in IHl. rewrite forallb_forall in Wi.
    apply forallb_map_In. auto.
  - destruct (own_case idp mk v k O) as (-> & _). rewrite wf_pair by easy. now apply K, (own_proxy_in mk v).
  - destruct (ref_case idp mk v B) as (-> & _). rewrite wf_pair by easy. apply idp_wf.
Qed.
Theorem pkg_text_ok mk : keys_ok mk -> forall v, text_ok P v = true -> text_ok P (pkg_of idp mk v) = true.
Proof.
  intros K. pose proof idp_text as T. unfold keys_ok, text_ok in *. destruct (sp P); [reflexivity|]. cbn [orb] in *.
  induction v as [v D|l IHl D|v k O|v B] using (shape_ind mk); intros W.
  - destruct (value_case idp mk v D) as (-> & _). now rewrite nosurr_pair.
  - rewrite pkg_of_tuple, nosurr_pair by easy. cbn [nosurr] in *. rewrite Forall_forall in IHl. rewrite forallb_forall in W.
    apply forallb_map_In. auto.
  - destruct (own_case idp mk v k O) as (-> & _). rewrite nosurr_pair. now apply K, (own_proxy_in mk v).
  - destruct (ref_case idp mk v B) as (-> & _). rewrite nosurr_pair. apply T.
Qed.

Theorem values_by_copy from v w : dumpable v = true -> wf P v = true -> text_ok P v = true ->
  transfers from v w = Ok (v, w).
Proof.
  intros D W T. unfold transfer. rewrite box_spec, regs_of_value by exact D.
  destruct (value_case idp (made (get w from)) v D) as (-> & _). cbn [bind register fold_left].
  rewrite set_ltab_id, wire_k.
  - rewrite unbox_value. cbn [bind]. now rewrite put2_get.
  - now rewrite wf_pair.
  - now rewrite dumpable_pair.
  - unfold text_ok in *. now rewrite nosurr_pair.
Qed.

(* the invariant of every world reachable by well-behaved parties; T k: the owner's table has key k *)
Definition cache_ok (T : idpack -> bool) (r : side) : Prop :=
  forall k n rc, lookup k (cache r) = Some (n, rc) -> nth_error (made r) (N.to_nat n) = Some k /\ T k = true.
Definition side_ok (T : idpack -> bool) (r : side) : Prop := cache_ok T r /\ keys_ok (made r).
Definition inv1 (s t : side) : Prop :=
  side_ok (fun k => has k (ltab t)) s /\ keyed idp (ltab t).
Definition inv (w : world) : Prop := inv1 (wa w) (wb w) /\ inv1 (wb w) (wa w).

Lemma side_ok_mono (T T' : idpack -> bool) r : (forall k, T k = true -> T' k = true) -> side_ok T r -> side_ok T' r.
Proof. intros H [C K]. split; [|exact K]. intros k n rc E. destruct (C _ _ _ E). auto. Qed.
Lemma accept_ok T k r : side_ok T r -> T k = true ->
  wf P (pv_of_idpack k) = true -> text_ok P (pv_of_idpack k) = true -> side_ok T (snd (accept k r)).
Proof.
  intros [C K] Tk Wk Nk.
  (* either way the cache gets an entry (n, _) for k, k is the n-th netref, and the netrefs made before stay *)
  assert (U : forall n rc tl, nth_error (made r ++ tl) (N.to_nat n) = Some k ->
            cache_ok T {| ltab := ltab r; made := made r ++ tl; cache := update k (n, rc) (cache r); mlog := mlog r |}).
  { intros n rc tl Hn k' n' rc' H. cbn [cache made] in *. rewrite lookup_update in H.
    destruct (idpack_eqb_spec k' k) as [->|_]; [now injection H as <- <-|].
    destruct (C _ _ _ H) as [A B]. split; [|exact B]. rewrite nth_error_app1; [exact A|]. apply nth_error_Some. congruence. }
  unfold accept. destruct (lookup k (cache r)) as [[n rc]|] eqn:E; cbn [snd]; split.
  - specialize (U n (rc + 1) []). rewrite app_nil_r in U. apply U. exact (proj1 (C _ _ _ E)).
  - exact K.
  - apply U. unfold nlen. now rewrite Nat2N.id, nth_error_app2, Nat.sub_diag.
  - intros k' H. apply in_app_or in H as [H|[<-|[]]]; auto.
Qed.

Lemma inv1_frame s s' t t' : cache s' = cache s -> made s' = made s -> ltab t' = ltab t -> inv1 s t -> inv1 s' t'.
Proof. unfold inv1, side_ok, cache_ok. now intros -> -> ->. Qed.
Lemma inv1_cache s t k n rc : inv1 s t -> lookup k (cache s) = Some (n, rc) ->
  nth_error (made s) (N.to_nat n) = Some k /\ has k (ltab t) = true.
Proof. intros [[C _] _]. apply C. Qed.
Lemma inv1_keys s t : inv1 s t -> keys_ok (made s).
Proof. now intros [[_ K] _]. Qed.
Lemma inv1_keyed s t : inv1 s t -> keyed idp (ltab t).
Proof. now intros [_ Ky]. Qed.
Lemma inv1_intro s t :
  (forall k n rc, lookup k (cache s) = Some (n, rc) -> nth_error (made s) (N.to_nat n) = Some k /\ has k (ltab t) = true) ->
  keys_ok (made s) -> keyed idp (ltab t) -> inv1 s t.
Proof. intros C K Ky. exact (conj (conj C K) Ky). Qed.
Lemma inv_get w a : inv w -> inv1 (get w a) (get w (negb a)) /\ inv1 (get w (negb a)) (get w a).
Proof. intros [A B]. destruct a; split; assumption. Qed.
Lemma inv_put2 a s r : inv1 s r -> inv1 r s -> inv (put2 a s r).
Proof. intros A B. destruct a; split; assumption. Qed.
Lemma inv0 : inv world0.
Proof.
  assert (H : inv1 side0 side0).
  { apply inv1_intro.
    - intros k n rc H. discriminate.
    - intros k [].
    - intros k o c H. discriminate. }
  split; exact H.
Qed.
Lemma inv_proxy w a k n rc : inv w -> lookup k (cache (get w a)) = Some (n, rc) ->
  own_proxy (made (get w a)) (POther (proxy_name n)) = Some k /\ held (get w a) (POther (proxy_name n)) = true /\
  exists obj c, lookup k (ltab (get w (negb a))) = Some (obj, c).
Proof.
  intros I C. destruct (inv_get w a I) as [Is _]. destruct (inv1_cache _ _ _ _ _ Is C) as [Hn Hh].
  apply has_lookup in Hh as [[obj c] L]. unfold own_proxy. cbn [held dumpable].
  rewrite proxy_serial_name, Hn, C, N.eqb_refl. eauto.
Qed.

Theorem transfer_spec from v w :
  inv w -> wf P v = true -> text_ok P v = true -> held (get w from) v = true ->
  transfers from v w =
    Ok (fst (recv idp (made (get w from)) v (get w (negb from))),
        put2 from (set_ltab (get w from) (register idp (regs_of (made (get w from)) v) (ltab (get w from))))
                  (snd (recv idp (made (get w from)) v (get w (negb from))))).
Proof.
  intros I W T Hh. destruct (inv_get w from I) as [Is _]. pose proof (inv1_keys _ _ Is) as K.
  unfold transfer. rewrite box_spec. cbn [bind].
  rewrite wire_k by (apply pkg_wf || apply pkg_dumpable || apply pkg_text_ok; auto).
  rewrite (unbox_pkg idp _ (get w from) (ltab (get w (negb from)))).
  - cbn [bind]. now destruct (recv _ _ _ _).
  - intros k n rc E. exact (proj2 (inv1_cache _ _ _ _ _ Is E)).
  - exact Hh.
  - reflexivity.
  - intros u Hu. cbn [ltab set_ltab]. apply has_register. right. now apply in_map.
Qed.

Theorem transfer_inv from v w : inv w -> wf P v = true -> text_ok P v = true -> held (get w from) v = true ->
  exists v' w', transfers from v w = Ok (v', w') /\ inv w'.
Proof.
  intros I W T Hh. rewrite transfer_spec by assumption. eexists _, _. split; [reflexivity|].
  destruct (inv_get w from I) as [Is Ir]. apply inv_put2.
  - apply (inv1_frame (get w from) _ (get w (negb from))); auto. apply recv_ltab.
  - (* the sender's table only grows, and every arrival is of a key just registered *)
    unfold inv1 in Ir |- *. destruct Ir as [Sr Kyr]. cbn [ltab set_ltab]. split; [|now apply keyed_register].
    rewrite recv_side. apply fold_left_inv.
    + intros r u Hu S. apply accept_ok; [exact S| |apply idp_wf|apply idp_text]. apply has_register. right. now apply in_map.
    + revert Sr. apply side_ok_mono. intros k Hk. apply has_register. now left.
Qed.

(* the world after party [from] has sent the object v by reference *)
Definition lend (from : bool) (v : pyval) (w : world) : world :=
  put2 from (set_ltab (get w from) (coll_add (idp v) v (ltab (get w from)))) (snd (accept (idp v) (get w (negb from)))).

Theorem refs_by_reference from v w :
  inv w -> byref (made (get w from)) v -> wf P v = true -> text_ok P v = true ->
  transfers from v w = Ok (fst (accept (idp v) (get w (negb from))), lend from v w).
Proof.
  intros I B W X. rewrite transfer_spec by auto using held_byref. now destruct (ref_case idp _ v B) as (_ & -> & ->).
Qed.
Lemma lend_inv from v w : inv w -> byref (made (get w from)) v -> wf P v = true -> text_ok P v = true -> inv (lend from v w).
Proof.
  intros I B W X. destruct (transfer_inv from v w I W X (held_byref _ _ B)) as (v' & w' & E & I').
  rewrite refs_by_reference in E by assumption. now injection E as _ <-.
Qed.
Lemma lend_mlog from v w a : mlog (get (lend from v w) a) = mlog (get w a).
Proof. unfold lend. destruct from, a; cbn [get put2 wa wb negb mlog set_ltab]; auto; apply accept_frame. Qed.

(* the n-th proxy at party a is alive and stands for obj *)
Section Live.
Variables (a : bool) (n : N) (k : idpack) (rc : Z) (obj : pyval) (c : Z) (w : world).
Hypothesis I : inv w.
Hypothesis C : lookup k (cache (get w a)) = Some (n, rc).
Hypothesis L : lookup k (ltab (get w (negb a))) = Some (obj, c).

Theorem echo_identity : transfers a (POther (proxy_name n)) w = Ok (obj, w).
Proof.
  destruct (inv_proxy w a k n rc I C) as (O & Hh & _). rewrite transfer_spec by auto using text_ok_nosurr.
  destruct (own_case idp _ _ _ O) as (_ & -> & ->). rewrite L. cbn [fst snd register fold_left].
  now rewrite set_ltab_id, put2_get.
Qed.

(* a request through the proxy carrying a plain argument x: the owner's _unbox yields the object itself *)
Lemma request_via_proxy x : dumpable x = true -> wf P x = true -> text_ok P x = true ->
  transfers a (PTuple [POther (proxy_name n); x]) w = Ok (PTuple [obj; x], w).
Proof.
  intros D W X. destruct (inv_proxy w a k n rc I C) as (O & Hh & _). rewrite transfer_spec; auto.
  - rewrite recv_tuple, regs_of_tuple. cbn [recv_items flat_map].
    destruct (own_case idp _ _ _ O) as (_ & -> & ->), (value_case idp (made (get w a)) x D) as (_ & ->). rewrite L, regs_of_value by exact D.
    cbn [fst snd app register fold_left]. now rewrite set_ltab_id, put2_get.
  - cbn [wf forallb]. now rewrite W.
  - unfold text_ok in *. cbn [nosurr forallb]. destruct (sp P); auto. simpl in *. now rewrite X.
  - cbn [held dumpable forallb andb]. cbn [held dumpable] in Hh. now rewrite Hh, held_value.
Qed.

Theorem mutation_at_owner d : wf P (PInt d) = true ->
  mutate P std_bladder std_uladder idp a n d w =
    Ok (put2 a (get w a) (set_mlog (get w (negb a)) (mlog (get w (negb a)) ++ [(obj, d)]))).
Proof. intros W. unfold mutate. now rewrite request_via_proxy by auto using text_ok_nosurr. Qed.

Theorem drop_spec : wf P (PInt rc) = true ->
  drop P std_bladder std_uladder idp a n w =
    Ok (put2 a (set_cache (get w a) (remove k (cache (get w a))))
               (set_ltab (get w (negb a))
                  (if c <? rc then remove k (ltab (get w (negb a))) else update k (obj, c - rc) (ltab (get w (negb a)))))).
Proof.
  intros W. destruct (inv_get w a I) as [Is _]. destruct (inv1_cache _ _ _ _ _ Is C) as [Hn _].
  unfold drop. rewrite Hn, C, N.eqb_refl, request_via_proxy by auto using text_ok_nosurr.
  rewrite (inv1_keyed _ _ Is _ _ _ L). unfold coll_decref. now rewrite L.
Qed.

Theorem drop_forgets : wf P (PInt rc) = true ->
  exists w', drop P std_bladder std_uladder idp a n w = Ok w' /\ inv w' /\
    lookup k (cache (get w' a)) = None /\ made (get w' a) = made (get w a).
Proof.
  intros W. rewrite (drop_spec W). eexists. split; [reflexivity|].
  rewrite get_put2_same. cbn [cache set_cache made]. rewrite lookup_remove, idpack_eqb_refl. split; [|now split].
  destruct (inv_get w a I) as [Is Io]. apply inv_put2; [|revert Io; now apply inv1_frame].
  pose proof (inv1_keyed _ _ Is) as Ky.
  set (t := ltab (get w (negb a))) in *. set (t' := if c <? rc then _ else _).
  (* the owner's table changes at k only, and the object under k stays *)
  assert (E : forall k', lookup k' t' =
    if idpack_eqb k' k then (if c <? rc then None else Some (obj, c - rc)) else lookup k' t).
  { intros k'. unfold t'. destruct (c <? rc); [apply lookup_remove|apply lookup_update]. }
  apply inv1_intro; cbn [cache made ltab set_ltab set_cache].
  - intros k' n2 rc2 H. rewrite lookup_remove in H. destruct (idpack_eqb k' k) eqn:Ne; [discriminate|].
    destruct (inv1_cache _ _ _ _ _ Is H) as [Hn Hh]. split; [exact Hn|]. unfold has in *. now rewrite E, Ne.
  - exact (inv1_keys _ _ Is).
  - intros k' o' c' H. rewrite E in H. destruct (idpack_eqb_spec k' k) as [->|_]; [|exact (Ky _ _ _ H)].
    destruct (c <? rc); [discriminate|]. injection H as <- _. exact (Ky _ _ _ L).
Qed.
End Live.

Theorem drop_inv a n w : inv w ->
  (forall k rc, lookup k (cache (get w a)) = Some (n, rc) -> wf P (PInt rc) = true) ->
  exists w', drop P std_bladder std_uladder idp a n w = Ok w' /\ inv w'.
Proof.
  intros I Wc.
  destruct (nth_error (made (get w a)) (N.to_nat n)) as [k|] eqn:Hn; [|exists w; unfold drop; now rewrite Hn].
  destruct (lookup k (cache (get w a))) as [[n' rc]|] eqn:C; [|exists w; unfold drop; now rewrite Hn, C].
  destruct (N.eqb_spec n' n) as [->|Ne]; [|exists w; unfold drop; rewrite Hn, C; apply N.eqb_neq in Ne; now rewrite Ne].
  destruct (inv_proxy w a k n rc I C) as (_ & _ & obj & c & L).
  destruct (drop_forgets a n k rc obj c w I C L (Wc _ _ C)) as (w' & E & I' & _). eauto.
Qed.

(* party [from] owns v, stored under its own id pack, and the peer holds the live proxy p for it *)
Definition linked (from : bool) (p : N) (v : pyval) (w : world) : Prop :=
  inv w /\ byref (made (get w from)) v /\
  (exists rc, lookup (idp v) (cache (get w (negb from))) = Some (p, rc)) /\
  (exists c, lookup (idp v) (ltab (get w from)) = Some (v, c)).

(* the premise on the table is "no other live object has v's id pack" *)
Theorem first_send_links from v w :
  inv w -> byref (made (get w from)) v -> wf P v = true -> text_ok P v = true ->
  (forall o c, lookup (idp v) (ltab (get w from)) = Some (o, c) -> o = v) ->
  exists p, fst (accept (idp v) (get w (negb from))) = POther (proxy_name p) /\ linked from p v (lend from v w).
Proof.
  intros I B W X NC. destruct (accept_cache (idp v) (get w (negb from))) as (p & rc & A1 & A2).
  exists p. split; [exact A1|]. split; [now apply lend_inv|]. unfold lend.
  rewrite get_put2_same, get_put2_other. cbn [made set_ltab ltab]. split; [exact B|]. split; [eauto|].
  rewrite lookup_coll_add, idpack_eqb_refl. destruct (lookup (idp v) (ltab (get w from))) as [[o c]|] eqn:L; [|eauto].
  rewrite (NC _ _ eq_refl). eauto.
Qed.

Lemma linked_back from p v w : linked from p v w -> transfers (negb from) (POther (proxy_name p)) w = Ok (v, w).
Proof.
  intros (I & B & (rc & C) & (c & L)). apply (echo_identity (negb from) p (idp v) rc v c w I C).
  now rewrite negb_involutive.
Qed.
Lemma linked_forth from p v w : linked from p v w -> wf P v = true -> text_ok P v = true ->
  exists w', transfers from v w = Ok (POther (proxy_name p), w') /\ linked from p v w'.
Proof.
  intros (I & B & (rc & C) & (c & L)) W X.
  destruct (first_send_links from v w I B W X) as (p' & E & L'); [intros o c' H; rewrite L in H; now injection H|].
  rewrite refs_by_reference by assumption. rewrite (accept_hit _ _ _ _ C) in E |- *.
  apply proxy_name_inj in E as <-. eauto.
Qed.

(* n transfers in alternating directions, the first from party [from], each carrying what the one before delivered *)
Fixpoint hops (n : nat) (from : bool) (x : pyval) (w : world) : result (pyval * world) :=
  match n with
  | O => Ok (x, w)
  | S n' => do (y, w') <- transfers from x w; hops n' (negb from) y w'
  end.

Lemma linked_hops from p v : wf P v = true -> text_ok P v = true ->
  forall n w, linked from p v w ->
  (exists w', hops n from v w = Ok (if Nat.even n then v else POther (proxy_name p), w')) /\
  (exists w', hops n (negb from) (POther (proxy_name p)) w = Ok (if Nat.even n then POther (proxy_name p) else v, w')).
Proof.
  intros W X. induction n as [|n IH]; intros w L; [split; eexists; reflexivity|].
  rewrite Nat.even_succ, <- Nat.negb_even. cbn [hops]. split.
  - destruct (linked_forth from p v w L W X) as (w1 & -> & L1). cbn [bind]. destruct (IH w1 L1) as [_ (w' & ->)].
    exists w'. now destruct (Nat.even n).
  - rewrite (linked_back from p v w L). cbn [bind]. rewrite negb_involutive. destruct (IH w L) as [(w' & ->) _].
    exists w'. now destruct (Nat.even n).
Qed.

Theorem echo_hops from v w :
  inv w -> byref (made (get w from)) v -> wf P v = true -> text_ok P v = true ->
  (forall o c, lookup (idp v) (ltab (get w from)) = Some (o, c) -> o = v) ->
  exists p, forall n, exists w', hops (S n) from v w = Ok (if Nat.even n then POther (proxy_name p) else v, w').
Proof.
  intros I B W X NC. destruct (first_send_links from v w I B W X NC) as (p & E & L). exists p. intros n.
  destruct (linked_hops from p v W X n _ L) as [_ (w' & H)]. exists w'.
  cbn [hops]. rewrite refs_by_reference, E by assumption. exact H.
Qed.

Fixpoint transfer_items (from : bool) (l : list pyval) (w : world) : result (list pyval * world) :=
  match l with
  | [] => Ok ([], w)
  | y :: ys => do (y', w1) <- transfers from y w; do (ys', w2) <- transfer_items from ys w1; Ok (y' :: ys', w2)
  end.

Lemma transfer_items_spec from : forall l w, inv w ->
  forallb (wf P) l = true -> forallb (text_ok P) l = true -> forallb (held (get w from)) l = true ->
  transfer_items from l w =
    Ok (fst (recv_items idp (made (get w from)) l (get w (negb from))),
        put2 from (set_ltab (get w from) (register idp (flat_map (regs_of (made (get w from))) l) (ltab (get w from))))
                  (snd (recv_items idp (made (get w from)) l (get w (negb from))))).
Proof.
  induction l as [|y ys IH]; intros w I W X Hh.
  - simpl. now rewrite set_ltab_id, put2_get.
  - simpl in W, X, Hh. apply andb_true_iff in W as [W1 W2]. apply andb_true_iff in X as [X1 X2].
    apply andb_true_iff in Hh as [H1 H2]. cbn [transfer_items].
    destruct (transfer_inv from y w I W1 X1 H1) as (y' & w1 & E & I1). rewrite E. cbn [bind].
    rewrite transfer_spec in E by assumption. injection E as <- <-. rewrite IH; auto.
    + rewrite get_put2_same, get_put2_other. cbn [made set_ltab ltab bind recv_items flat_map].
      destruct (recv idp (made (get w from)) y (get w (negb from))) as [y' r1]. cbn [fst snd].
      destruct (recv_items idp (made (get w from)) ys r1) as [ys' r2]. cbn [fst snd].
      unfold register. now rewrite fold_left_app.
    + rewrite get_put2_same. rewrite forallb_forall in H2 |- *. intros v Hv. rewrite <- (H2 v Hv). now apply held_ext.
Qed.

(* obtain / deliver: pickle is two uninterpreted functions *)
Section PickleP.
Variable pk_dumps : pyval -> list byte.
Variable pk_loads : list byte -> pyval.

Theorem deliver_spec a v w : wf P (PBytes (pk_dumps v)) = true ->
  deliver P std_bladder std_uladder idp pk_dumps pk_loads a v w = transfers (negb a) (pk_loads (pk_dumps v)) w.
Proof. intros Wb. unfold deliver. now rewrite values_by_copy by auto using text_ok_nosurr. Qed.

Theorem deliver_then_mutate a v d w :
  inv w -> wf P (PBytes (pk_dumps v)) = true ->
  let cp := pk_loads (pk_dumps v) in
  byref (made (get w (negb a))) cp -> wf P cp = true -> text_ok P cp = true -> wf P (PInt d) = true ->
  (forall o c, lookup (idp cp) (ltab (get w (negb a))) = Some (o, c) -> o = cp) ->
  exists n w1 w2,
    deliver P std_bladder std_uladder idp pk_dumps pk_loads a v w = Ok (POther (proxy_name n), w1) /\
    mutate P std_bladder std_uladder idp a n d w1 = Ok w2 /\
    mlog (get w2 (negb a)) = mlog (get w (negb a)) ++ [(cp, d)] /\
    mlog (get w2 a) = mlog (get w a).
Proof.
  intros I Wb cp B W X Wd NC. rewrite deliver_spec by assumption. fold cp. rewrite refs_by_reference by assumption.
  destruct (first_send_links (negb a) cp w I B W X NC) as (n & -> & I' & _ & (rc & C) & (c & L)).
  rewrite negb_involutive in C. exists n. eexists _, _. split; [reflexivity|].
  split; [exact (mutation_at_owner a n (idp cp) rc cp c _ I' C L d Wd)|].
  rewrite get_put2_other, get_put2_same. cbn [mlog set_mlog]. now rewrite !lend_mlog.
Qed.
End PickleP.

Definition valid_op (w : world) (o : op) : Prop :=
  match o with
  | Send a v => wf P v = true /\ text_ok P v = true /\ held (get w a) v = true
  | Drop a n => forall k rc, lookup k (cache (get w a)) = Some (n, rc) -> wf P (PInt rc) = true
  | Mutate a n d => wf P (PInt d) = true /\ exists k rc, lookup k (cache (get w a)) = Some (n, rc)
  | Raw _ _ _ => False
  end.
Notation steps := (step P std_bladder std_uladder idp).

Theorem step_inv o w : inv w -> valid_op w o -> exists v w', steps o w = Ok (v, w') /\ inv w'.
Proof.
  intros I V. destruct o as [a v|a n|a n d|a f pkg]; cbn [valid_op step] in *.
  - destruct V as (W & X & Hh). exact (transfer_inv a v w I W X Hh).
  - destruct (drop_inv a n w I V) as (w' & E & I'). rewrite E. cbn [bind]. eauto.
  - destruct V as (W & k & rc & C). destruct (inv_proxy w a k n rc I C) as (_ & _ & obj & c & L).
    rewrite (mutation_at_owner a n k rc obj c w I C L d W). cbn [bind]. eexists _, _. split; [reflexivity|].
    (* the log is no part of the invariant *)
    destruct (inv_get w a I) as [Is Io]. apply inv_put2; [revert Is|revert Io]; now apply inv1_frame.
  - contradiction.
Qed.

(* each step is valid in the world the steps before it have led to *)
Inductive good : world -> list op -> Prop :=
| good_nil w : good w []
| good_cons w o ops : valid_op w o -> (forall v w', steps o w = Ok (v, w') -> good w' ops) -> good w (o :: ops).

Definition is_ok {A} (r : result A) : Prop := match r with Ok _ => True | _ => False end.
Theorem run_inv : forall ops w, inv w -> good w ops ->
  Forall is_ok (fst (run P std_bladder std_uladder idp ops w)) /\ inv (snd (run P std_bladder std_uladder idp ops w)).
Proof.
  induction ops as [|o ops IH]; intros w I G; simpl.
  - split; auto.
  - inversion G as [|? ? ? V Hn]; subst. destruct (step_inv o w I V) as (v & w' & E & I').
    rewrite E. destruct (IH w' I' (Hn _ _ E)) as [A B].
    destruct (run P std_bladder std_uladder idp ops w') as [vs w2]. simpl in *. split; auto. constructor; simpl; auto.
Qed.
End WorldP.

(* get_id_pack may change as long as the packs of the objects in the table do not *)
Lemma inv1_change_idp P idp idp' s t :
  (forall k o c, lookup k (ltab t) = Some (o, c) -> idp' o = idp o) -> inv1 P idp s t -> inv1 P idp' s t.
Proof.
  intros H I. apply inv1_intro.
  - intros k n rc E. exact (inv1_cache P idp _ _ _ _ _ I E).
  - exact (inv1_keys P idp _ _ I).
  - intros k o c L. rewrite (H k o c L). exact (inv1_keyed P idp _ _ I _ _ _ L).
Qed.

Lemma nested_arrival_rechecked k r : lookup k (cache r) = None ->
  let n := nlen (made r) in
  nested_arrival true k r =
    ((POther (proxy_name n), POther (proxy_name n)),
     {| ltab := ltab r; made := made r ++ [k]; cache := update k (n, 2) (update k (n, 1) (cache r)); mlog := mlog r |}).
Proof.
  intros H n. unfold nested_arrival. rewrite (accept_miss _ _ H). fold n.
  erewrite accept_hit by (cbn [cache]; now rewrite lookup_update, idpack_eqb_refl). reflexivity.
Qed.
Lemma nested_arrival_stale k r : lookup k (cache r) = None ->
  let n := nlen (made r) in
  nested_arrival false k r =
    ((POther (proxy_name (n + 1)), POther (proxy_name n)),
     {| ltab := ltab r; made := (made r ++ [k]) ++ [k]; cache := update k ((n + 1)%N, 1) (update k (n, 1) (cache r)); mlog := mlog r |}).
Proof.
  intros H n. unfold nested_arrival, store_fresh. rewrite (accept_miss _ _ H). fold n. cbn [made cache ltab mlog].
  replace (nlen (made r ++ [k])) with (n + 1)%N; [reflexivity|]. unfold n, nlen. rewrite app_length. simpl. lia.
Qed.
