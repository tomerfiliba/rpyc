(* lib/Decimal.v: the decimal text of an integer parses back to it; how long the text can be *)
From V Require Import lib.Base lib.Decimal.
Open Scope N_scope.

Lemma dbl_val : forall l c, val_le (dbl c l) = 2 * val_le l + c.
Proof.
  induction l as [|d t IH]; intros c; cbn [dbl val_le fold_right].
  - destruct (N.eqb_spec c 0); cbn [fold_right]; lia.
  - destruct (N.ltb_spec (2 * d + c) 10); cbn [fold_right].
    + fold (val_le (dbl 0 t)). fold (val_le t). rewrite IH. lia.
    + fold (val_le (dbl 1 t)). fold (val_le t). rewrite IH. lia.
Qed.

Lemma dbl_small : forall l c, c <= 1 -> Forall (fun d => d < 10) l -> Forall (fun d => d < 10) (dbl c l).
Proof.
  induction l as [|d t IH]; intros c Hc HF; cbn [dbl].
  - destruct (N.eqb_spec c 0); constructor; [lia|constructor].
  - inversion HF as [|? ? Hd Ht]; subst. destruct (N.ltb_spec (2 * d + c) 10); (constructor; [lia|]); (apply IH; [lia|exact Ht]).
Qed.

Lemma dbl_nonempty : forall l c, l <> [] -> dbl c l <> [].
Proof. destruct l; intros; cbn [dbl]; [congruence|]. destruct (2 * n + c <? 10); discriminate. Qed.

Lemma digits_val p : val_le (digits_le p) = Npos p.
Proof. induction p; cbn [digits_le]; rewrite ?dbl_val, ?IHp; cbn; lia. Qed.

Lemma digits_small p : Forall (fun d => d < 10) (digits_le p).
Proof. induction p; cbn [digits_le]; try (apply dbl_small; [lia|assumption]). repeat constructor. Qed.

Lemma digits_nonempty p : digits_le p <> [].
Proof. induction p; cbn [digits_le]; try (apply dbl_nonempty; assumption). discriminate. Qed.

Lemma dbl_length : forall l c, nlen (dbl c l) <= nlen l + 1.
Proof.
  unfold nlen. induction l as [|d t IH]; intros c; cbn [dbl].
  - destruct (c =? 0); cbn [length]; lia.
  - destruct (2 * d + c <? 10); cbn [length]; [specialize (IH 0)|specialize (IH 1)]; lia.
Qed.
Lemma ndigits_size z : ndigits z <= N.max 1 (N.size (Z.abs_N z)).
Proof.
  assert (H : forall p, nlen (digits_le p) <= Npos (Pos.size p)).
  { induction p as [p IH|p IH|]; cbn [digits_le Pos.size]; [pose proof (dbl_length (digits_le p) 1)|pose proof (dbl_length (digits_le p) 0)|reflexivity]; lia. }
  destruct z as [|p|p]; cbn [ndigits Z.abs_N N.size]; [lia|specialize (H p)|specialize (H p)]; lia.
Qed.

Lemma render_raw_length z : nlen (render_raw z) <= ndigits z + 1.
Proof.
  destruct z as [|p|p]; cbn [render_raw ndigits]; unfold nlen, render_pos; cbn [length]; rewrite ?rev_length, ?map_length; lia.
Qed.

Lemma digit_char_spec d : d < 10 -> digit_val (digit_char d) = Some d /\ is_ws (digit_char d) = false /\
  Byte.eqb (digit_char d) minus_char = false /\ Byte.eqb (digit_char d) plus_char = false.
Proof.
  intros H. assert (C : d = 0 \/ d = 1 \/ d = 2 \/ d = 3 \/ d = 4 \/ d = 5 \/ d = 6 \/ d = 7 \/ d = 8 \/ d = 9) by lia.
  repeat (destruct C as [->|C]; [now repeat split|]). subst. now repeat split.
Qed.
Lemma digit_not_ws d : d < 10 -> is_ws (digit_char d) = false.
Proof. intros H. apply (digit_char_spec d H). Qed.

Lemma scan_digits : forall ds prev acc, Forall (fun d => d < 10) ds -> (ds <> [] \/ prev = true) ->
  scan (map digit_char ds) prev acc = Some (rev acc ++ ds).
Proof.
  induction ds as [|d t IH]; intros prev acc HF Hne.
  - destruct Hne as [Hne| ->]; [congruence|]. cbn. now rewrite app_nil_r.
  - inversion HF as [|? ? Hd Ht]; subst. cbn [map scan]. rewrite (proj1 (digit_char_spec d Hd)).
    rewrite IH by (auto). cbn [rev]. now rewrite <- app_assoc.
Qed.

Lemma val_be_rev l : val_be (rev l) = val_le l.
Proof.
  unfold val_be, val_le. induction l as [|d t IH]; [reflexivity|].
  cbn [rev fold_right]. rewrite fold_left_app, IH. cbn [fold_left]. lia.
Qed.

Lemma strip_ws_head b t : is_ws b = false -> strip_ws (b :: t) = b :: t.
Proof. intros H. cbn. now rewrite H. Qed.

Lemma render_pos_shape p : exists d t, d < 10 /\ render_pos p = digit_char d :: t /\
  exists d' t', d' < 10 /\ rev (render_pos p) = digit_char d' :: t'.
Proof.
  unfold render_pos. rewrite rev_involutive.
  pose proof (digits_small p) as HS. pose proof (digits_nonempty p) as HN.
  destruct (digits_le p) as [|d0 t0] eqn:E; [congruence|].
  assert (HS' : Forall (fun d => d < 10) (rev (d0 :: t0))) by (apply Forall_rev; exact HS).
  rewrite <- map_rev.
  destruct (rev (d0 :: t0)) as [|d1 t1] eqn:E1.
  { apply (f_equal (@length N)) in E1. rewrite rev_length in E1. discriminate. }
  inversion HS'; subst. inversion HS; subst.
  exists d1, (map digit_char t1). repeat split; auto.
  exists d0, (map digit_char t0). repeat split; auto.
Qed.

Lemma strip_both_render_pos p : rev (strip_ws (rev (strip_ws (render_pos p)))) = render_pos p.
Proof.
  destruct (render_pos_shape p) as (d & t & Hd & E & d' & t' & Hd' & E').
  rewrite E at 1. rewrite strip_ws_head by (apply digit_not_ws; exact Hd). rewrite <- E.
  rewrite E'. rewrite strip_ws_head by (apply digit_not_ws; exact Hd'). rewrite <- E'.
  apply rev_involutive.
Qed.

Lemma scan_render_pos p : scan (render_pos p) false [] = Some (rev (digits_le p)).
Proof.
  unfold render_pos. rewrite <- map_rev. rewrite scan_digits.
  - reflexivity.
  - apply Forall_rev, digits_small.
  - left. intros H. apply (f_equal (@length N)) in H. rewrite rev_length in H.
    pose proof (digits_nonempty p). destruct (digits_le p); [congruence|discriminate].
Qed.

Theorem parse_render m z bs : render m z = Ok bs -> parse m bs = Ok z.
Proof.
  unfold render. destruct (over_limit m (ndigits z)) eqn:EL; [discriminate|]. intros [= <-].
  destruct z as [|p|p].
  - (* the text is "0": everything but the limit test evaluates *)
    change (parse m (render_raw 0)) with (if over_limit m (ndigits 0) then Raise ValueError else Ok 0%Z). now rewrite EL.
  - cbn [render_raw]. unfold parse. rewrite strip_both_render_pos.
    destruct (render_pos_shape p) as (d & t & Hd & E & _).
    destruct (digit_char_spec d Hd) as (_ & _ & S1 & S2).
    rewrite E. rewrite S1, S2. rewrite <- E. rewrite scan_render_pos.
    unfold nlen. rewrite rev_length. cbn [ndigits] in EL. unfold nlen in EL. rewrite EL.
    rewrite val_be_rev, digits_val. reflexivity.
  - cbn [render_raw]. unfold parse.
    assert (HS : rev (strip_ws (rev (strip_ws (minus_char :: render_pos p)))) = minus_char :: render_pos p).
    { rewrite strip_ws_head by reflexivity.
      destruct (render_pos_shape p) as (_ & _ & _ & _ & d' & t' & Hd' & E').
      cbn [rev]. rewrite E'. cbn [app]. rewrite strip_ws_head by (apply digit_not_ws; exact Hd').
      change (digit_char d' :: t' ++ [minus_char]) with ((digit_char d' :: t') ++ [minus_char]).
      rewrite <- E'. rewrite rev_app_distr, rev_involutive. reflexivity. }
    rewrite HS. change (Byte.eqb minus_char minus_char) with true. cbv iota.
    rewrite scan_render_pos. unfold nlen. rewrite rev_length. cbn [ndigits] in EL. unfold nlen in EL. rewrite EL.
    rewrite val_be_rev, digits_val. reflexivity.
Qed.

Lemma parse_definite m bs : parse m bs <> OutOfFuel.
Proof.
  unfold parse. destruct (match rev (strip_ws (rev (strip_ws bs))) with [] => _ | _ :: _ => _ end) as [neg rest].
  destruct (scan rest false []); [destruct (over_limit m _)|]; discriminate.
Qed.
