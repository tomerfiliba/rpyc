(* Termination of the send hand-off under ANY scheduler, fair or not: a potential that strictly decreases on every step
   of every thread.  For a system with n sending threads (all other thread ids idle). *)
From V Require Import lib.Base model.SendQ proofs.SendQP.

Fixpoint sumn (g : nat -> nat) (n : nat) : nat := match n with O => O | S k => sumn g k + g k end.

Lemma sumn_le g g' c n : (forall j, g' j <= g j + c) -> sumn g' n <= sumn g n + c * n.
Proof. intros H. induction n as [|k IH]; cbn [sumn]; [lia|]. specialize (H k). lia. Qed.

Lemma sumn_same g g' n : (forall j, j < n -> g' j = g j) -> sumn g' n = sumn g n.
Proof. induction n as [|k IH]; intros H; [reflexivity|]. cbn [sumn]. rewrite IH, H by auto. reflexivity. Qed.

Lemma sumn_at g g' n i : i < n -> (forall j, j <> i -> g' j = g j) -> sumn g' n + g i = sumn g n + g' i.
Proof.
  intros Hi H. induction n as [|k IH]; [lia|]. cbn [sumn]. destruct (Nat.eq_dec i k) as [->|Hne].
  - rewrite (sumn_same g g' k) by (intros j Hj; apply H; lia). lia.
  - rewrite (H k) by auto. specialize (IH ltac:(lia)). lia.
Qed.

Definition qe (s : st) : bool := match queue s with [] => true | _ => false end.
(* a thread's rank at each point of _send, by whether the queue is empty: it falls along every edge that leaves the queue alone
   (non-empty: P1 > P2 > P3 > P4 and P5 > P6 > P1; empty: P2 > P3 > P6 > P1; a return is 0) and moves by at most 4 when the queue
   becomes empty or non-empty under it *)
Definition rho (p : pc) (e : bool) : nat :=
  match p, e with
  | P0, _ | Done, _ => 0
  | P1, false => 4 | P1, true => 1
  | P2, false => 3 | P2, true => 7
  | P3, false => 2 | P3, true => 6
  | P4, _ => 1
  | P5, _ => 6
  | P6, _ => 5
  end.
Lemma rho_flip p e e' : rho p e' <= rho p e + 4.
Proof. destruct p, e, e'; cbn; lia. Qed.

Lemma step_rank i s s' : step i s = Some s' ->
  let t := thrs s i in let t' := thrs s' i in
  (tpc t = P0 /\ tpc t' = P1 /\ next t' = S (next t) /\ length (queue s') = S (length (queue s)))
  \/ (tpc t = P4 /\ tpc t' = P5 /\ next t' = next t /\ length (queue s) = S (length (queue s')))
  \/ (queue s' = queue s /\ next t' = next t /\ rho (tpc t') (qe s) < rho (tpc t) (qe s)).
Proof.
  intros H. unfold qe. step_cases H. all: try destruct (ret_pc_spec (thrs s i)) as [[-> _]|[-> _]].
  (* the first conjunct tells the case *)
  all: first [left; split; [reflexivity|]|right; left; split; [reflexivity|]|right; right; split; [reflexivity|]].
  all: repeat split; rewrite ?app_length, ?Nat.add_1_r; try destruct (queue s); cbn [rho]; lia.
Qed.

Section Term.
Variable n : nat.
Definition W : nat := 4 * n + 8.
Definition remn (s : st) (i : nat) : nat := total (thrs s i) - next (thrs s i).
Definition A (s : st) : nat := sumn (remn s) n.
Definition R (s : st) : nat := sumn (fun i => rho (tpc (thrs s i)) (qe s)) n.
Definition Phi (s : st) : nat := W * (A s + length (queue s)) + W * A s + R s.

Definition idle_beyond (s : st) : Prop := forall i, n <= i -> tpc (thrs s i) = Done.

Lemma step_idle_beyond i s s' : idle_beyond s -> step i s = Some s' -> i < n /\ idle_beyond s'.
Proof.
  intros Hb H. destruct (Nat.lt_ge_cases i n) as [Hi|Hi].
  - split; [exact Hi|]. intros j Hj. rewrite (step_other j H) by lia. apply Hb, Hj.
  - exfalso. unfold step in H. rewrite (Hb i Hi) in H. discriminate.
Qed.

Theorem potential_decreases i s s' : Inv s -> idle_beyond s -> step i s = Some s' -> Phi s' < Phi s.
Proof.
  intros I Hb H. destruct (step_idle_beyond i s s' Hb H) as [Hi _].
  (* the sums change in the mover's summand only, apart from the ranks' dependence on whether the queue is empty *)
  assert (HA : A s' + remn s i = A s + remn s' i).
  { apply sumn_at; [exact Hi|]. intros j Hj. unfold remn. now rewrite (step_other j H Hj). }
  assert (HR : forall e, sumn (fun j => rho (tpc (thrs s' j)) e) n + rho (tpc (thrs s i)) e
                         = sumn (fun j => rho (tpc (thrs s j)) e) n + rho (tpc (thrs s' i)) e).
  { intros e. apply (sumn_at (fun j => rho (tpc (thrs s j)) e)); [exact Hi|]. intros j Hj. now rewrite (step_other j H Hj). }
  assert (HF : R s' <= sumn (fun j => rho (tpc (thrs s' j)) (qe s)) n + 4 * n) by (apply sumn_le; intros j; apply rho_flip).
  specialize (HR (qe s)). fold (R s) in HR. unfold remn in HA. rewrite (step_total i H) in HA.
  destruct (I_cnt s I i) as (N1 & N2 & _).
  (* an append or a pop lowers the first two summands by W = 4n+8 in all, more than R can rise (4 for each thread, whose rank
     may see the queue become empty or not, and the mover's new rank); any other step leaves them alone and lowers R *)
  unfold Phi, W. destruct (step_rank i s s' H) as [(E & E' & En & ->)|[(E & E' & En & ->)|(Eq & En & Hr)]]; rewrite En in HA.
  - rewrite E, E' in HR. specialize (N2 E). pose proof (rho_flip P1 true (qe s)). cbn [rho] in *.
    replace (A s) with (S (A s')) by lia. lia.
  - rewrite E, E' in HR. cbn [rho] in HR. replace (A s') with (A s) by lia. lia.
  - assert (E : R s' = sumn (fun j => rho (tpc (thrs s' j)) (qe s)) n) by (unfold R, qe; now rewrite Eq).
    rewrite Eq. replace (A s') with (A s) by lia. lia.
Qed.

Inductive run_of : st -> nat -> st -> Prop :=
| run_nil s : run_of s 0 s
| run_cons s i s1 k s2 : step i s = Some s1 -> run_of s1 k s2 -> run_of s (S k) s2.

Theorem bounded_executions : forall k s s', Inv s -> idle_beyond s -> run_of s k s' -> k + Phi s' <= Phi s.
Proof.
  induction k as [|k IH]; intros s s' I Hb Hr.
  - inversion Hr; subst. lia.
  - inversion Hr as [|s0 i s1 k0 s2 Hst Hrest]; subst.
    pose proof (potential_decreases _ _ _ I Hb Hst).
    assert (I1 : Inv s1) by (eapply inv_step; eauto). destruct (step_idle_beyond _ _ _ Hb Hst) as [_ Hb1].
    specialize (IH _ _ I1 Hb1 Hrest). lia.
Qed.
End Term.
