(* Proofs for C20 (model/Files.v): the chunk loop copies every file exactly, the tree copy is [prune]. *)
From V Require Import lib.Base lib.Sx model.Files.
Open Scope N_scope.

Lemma nlen_zero {A} (l : list A) : nlen l = 0 -> l = [].
Proof. exact (nlen_nil l). Qed.

Lemma take_upto_spec chunk (src : list byte) : 1 <= chunk ->
  forall b rest, take_upto chunk src = (b, rest) ->
    b ++ rest = src /\ nlen b <= chunk /\ (b = [] -> src = []) /\ (rest <> [] -> nlen b = chunk).
Proof.
  intros Hc b rest. unfold take_upto. destruct (N.leb_spec (nlen src) chunk) as [H|H]; intros [= <- <-].
  - rewrite app_nil_r. now repeat split.
  - assert (L : nlen (firstn (N.to_nat chunk) src) = chunk) by (unfold nlen in *; rewrite firstn_length; lia).
    rewrite firstn_skipn, L. repeat split; [lia|]. intros E. rewrite E in L. cbn in L. lia.
Qed.

Definition ceil_div (n c : N) : N := (n + c - 1) / c.

Lemma ceil_div_0 c : 1 <= c -> ceil_div 0 c = 0.
Proof. intros. unfold ceil_div. apply N.div_small. lia. Qed.
Lemma ceil_div_small n c : 1 <= n -> n <= c -> ceil_div n c = 1.
Proof.
  intros. unfold ceil_div. replace (n + c - 1) with ((n - 1) + 1 * c) by lia.
  rewrite N.div_add by lia. rewrite N.div_small by lia. reflexivity.
Qed.
Lemma ceil_div_step n c : 1 <= c -> ceil_div (c + n) c = ceil_div n c + 1.
Proof.
  intros. unfold ceil_div. replace (c + n + c - 1) with ((n + c - 1) + 1 * c) by lia.
  now rewrite N.div_add by lia.
Qed.

Record good_writes (chunk : N) (data : list byte) (ws : list (list byte)) : Prop := {
  gw_concat : concat ws = data;                                        (* the bytes, in order *)
  gw_count : nlen ws = ceil_div (nlen data) chunk;                     (* ceil(len/chunk) write calls *)
  gw_each : Forall (fun w => w <> [] /\ nlen w <= chunk) ws;           (* never an empty write, never more than a chunk *)
  gw_full : Forall (fun w => nlen w = chunk) (removelast ws) }.        (* all but the last are full chunks *)

Lemma good_writes_nil chunk : 1 <= chunk -> good_writes chunk [] [].
Proof. intros Hc. split; cbn [concat removelast]; auto. now rewrite ceil_div_0. Qed.

Lemma run_loop_S f chunk body s :
  run_loop (S f) chunk body s = match run_body chunk body s with Break s' => Ok s' | Continue s' => run_loop f chunk body s' end.
Proof. reflexivity. Qed.

Lemma run_body_std chunk s :
  run_body chunk std_body s =
  match take_upto chunk (ls_src s) with
  | ([], rest) => Break {| ls_src := rest; ls_buf := []; ls_out := ls_out s; ls_reads := 0 :: ls_reads s |}
  | (b, rest) => Continue {| ls_src := rest; ls_buf := b; ls_out := b :: ls_out s; ls_reads := nlen b :: ls_reads s |}
  end.
Proof. unfold std_body. cbn [run_body]. destruct (take_upto chunk (ls_src s)) as [[|b0 b] rest]; reflexivity. Qed.

Lemma std_loop_done chunk n buf out reads : 1 <= chunk ->
  run_loop (S n) chunk std_body {| ls_src := []; ls_buf := buf; ls_out := out; ls_reads := reads |}
  = Ok {| ls_src := []; ls_buf := []; ls_out := out; ls_reads := 0 :: reads |}.
Proof. intros Hc. rewrite run_loop_S, run_body_std. now destruct chunk. Qed.

Lemma std_loop_spec chunk : 1 <= chunk -> forall n src, (length src <= n)%nat -> forall buf out reads,
  exists ws, run_loop (S n) chunk std_body {| ls_src := src; ls_buf := buf; ls_out := out; ls_reads := reads |}
             = Ok {| ls_src := []; ls_buf := []; ls_out := rev ws ++ out; ls_reads := rev (map nlen ws ++ [0]) ++ reads |}
             /\ good_writes chunk src ws.
Proof.
  intros Hc. induction n as [|n IH]; intros src Hn buf out reads.
  all: destruct src as [|x src']; [exists []; split; [now apply std_loop_done | now apply good_writes_nil]|].
  { cbn in Hn. lia. }
  set (src := x :: src') in *. rewrite run_loop_S, run_body_std. cbn [ls_src ls_out ls_reads].
  destruct (take_upto chunk src) as [b rest] eqn:E.
  destruct (take_upto_spec chunk src Hc b rest E) as (Happ & Hle & Hnil & Hfull).
  destruct b as [|b0 b']; [now discriminate Hnil|].
  assert (Hlen : (length rest <= n)%nat) by (rewrite <- Happ, app_length in Hn; cbn in Hn; lia).
  destruct (IH rest Hlen (b0 :: b') ((b0 :: b') :: out) (nlen (b0 :: b') :: reads)) as (ws & -> & [Gc Gn Ge Gf]).
  exists ((b0 :: b') :: ws). split; [cbn [rev map app]; now rewrite <- !app_assoc|]. split.
  - cbn [concat]. now rewrite Gc.
  - rewrite nlen_cons, Gn, <- Happ, nlen_app. destruct rest as [|r0 rest'].
    + rewrite N.add_0_r, ceil_div_0, ceil_div_small; [reflexivity | rewrite nlen_cons; lia | exact Hle | exact Hc].
    + rewrite Hfull by discriminate. now rewrite ceil_div_step.
  - constructor; [split; [discriminate | exact Hle] | exact Ge].
  - destruct ws as [|w ws']; [constructor|].
    change (removelast ((b0 :: b') :: w :: ws')) with ((b0 :: b') :: removelast (w :: ws')).
    (* a write follows, so this read left something *)
    constructor; [|exact Gf]. apply Hfull. intros ->. apply Forall_inv in Ge. now destruct w, Ge.
Qed.

Theorem copy_file_trace_good chunk data : 1 <= chunk ->
  exists ws, copy_file_trace std_body chunk data = Ok (ws, map nlen ws ++ [0]) /\ good_writes chunk data ws.
Proof.
  intros Hc. destruct (std_loop_spec chunk Hc (length data) data (le_n _) [] [] []) as (ws & Hrun & G).
  exists ws. split; [|exact G]. unfold copy_file_trace. rewrite Hrun. cbn [bind ls_out ls_reads].
  now rewrite !app_nil_r, !rev_involutive.
Qed.

Theorem copy_file_id chunk data : 1 <= chunk -> copy_file chunk data = Ok data.
Proof.
  intros Hc. destruct (copy_file_trace_good chunk data Hc) as (ws & E & G).
  unfold copy_file, copy_file_with. rewrite E. cbn [bind fst]. now rewrite (gw_concat _ _ _ G).
Qed.

Lemma bytes_eqb_eq a b : bytes_eqb a b = true <-> a = b.
Proof.
  revert b. induction a as [|x a IH]; destruct b as [|y b]; cbn [bytes_eqb]; [tauto | split; discriminate | split; discriminate |].
  rewrite andb_true_iff, IH. split.
  - intros [H ->]. now rewrite (Byte.byte_dec_bl _ _ H).
  - intros [= -> ->]. split; [now apply Byte.byte_dec_lb|reflexivity].
Qed.
Lemma bytes_eqb_refl a : bytes_eqb a a = true.
Proof. now apply bytes_eqb_eq. Qed.
Lemma bytes_eqb_neq a b : bytes_eqb a b = false <-> a <> b.
Proof. rewrite <- bytes_eqb_eq. destruct (bytes_eqb a b); easy. Qed.

Lemma mem_name_In k l : mem_name k l = true <-> In k l.
Proof.
  induction l as [|x l IH]; cbn; [easy|]. rewrite orb_true_iff, IH, bytes_eqb_eq. split; intros [H|H]; auto.
Qed.
Lemma nodup_names_NoDup l : nodup_names l = true <-> NoDup l.
Proof.
  induction l as [|x l IH]; cbn.
  - split; [constructor|reflexivity].
  - rewrite andb_true_iff, negb_true_iff, IH, <- not_true_iff_false, mem_name_In. split.
    + intros [H1 H2]. now constructor.
    + intros H. now inversion H.
Qed.

(* the conjunction over the children that the fixpoints on trees spell out *)
Lemma all_children (p : node -> bool) (es : list (name * node)) :
  (fix all (es : list (name * node)) : bool := match es with [] => true | (_, c) :: r => p c && all r end) es = true
  <-> Forall (fun e => p (snd e) = true) es.
Proof.
  induction es as [|[k c] r IH]; [now split|]. rewrite andb_true_iff, IH. split.
  - intros [H1 H2]. now constructor.
  - intros H. now inversion H.
Qed.

Lemma wf_dir es : wf_tree (Dir es) = true <->
  NoDup (map fst es) /\ Forall (fun e => wf_tree (snd e) = true) es.
Proof. cbn [wf_tree]. now rewrite andb_true_iff, nodup_names_NoDup, all_children. Qed.

Lemma no_special_dir es : no_special (Dir es) = true <-> Forall (fun e => no_special (snd e) = true) es.
Proof. apply all_children. Qed.

Lemma lookup_entry_None k es : ~ In k (map fst es) -> lookup_entry k es = None.
Proof.
  induction es as [|[k' v] r IH]; cbn; [easy|]. intros H.
  destruct (bytes_eqb k k') eqn:E; [|now apply IH; intros H'; apply H; right].
  apply bytes_eqb_eq in E. now destruct H; left.
Qed.
Lemma lookup_entry_In k es c : lookup_entry k es = Some c -> In (k, c) es.
Proof.
  induction es as [|[k' v] r IH]; cbn; [easy|]. destruct (bytes_eqb k k') eqn:E.
  - apply bytes_eqb_eq in E. subst. intros [= ->]. now left.
  - intros H. right. now apply IH.
Qed.

Lemma lookup_set_entry k k' v es :
  lookup_entry k (set_entry k' v es) = if bytes_eqb k k' then Some v else lookup_entry k es.
Proof.
  induction es as [|[k0 v0] r IH]; cbn.
  - destruct (bytes_eqb k k'); reflexivity.
  - destruct (bytes_eqb k' k0) eqn:E0; cbn.
    + apply bytes_eqb_eq in E0. subst k0. destruct (bytes_eqb k k'); reflexivity.
    + destruct (bytes_eqb k k0) eqn:E1; [|exact IH].
      apply bytes_eqb_eq in E1. subst k0. destruct (bytes_eqb k k') eqn:E2; [|reflexivity].
      apply bytes_eqb_eq in E2. subst k'. now rewrite bytes_eqb_refl in E0.
Qed.

Lemma set_entry_fresh k v es : lookup_entry k es = None -> set_entry k v es = es ++ [(k, v)].
Proof.
  induction es as [|[k0 v0] r IH]; cbn; [reflexivity|].
  destruct (bytes_eqb k k0); [discriminate|]. intros H. now rewrite IH.
Qed.

Lemma lookup_put k k' o es :
  lookup_entry k (put k' o es) =
  if bytes_eqb k k' then match o with Some v => Some v | None => lookup_entry k es end else lookup_entry k es.
Proof. destruct o; cbn [put]; [apply lookup_set_entry | now destruct (bytes_eqb k k')]. Qed.

Lemma lookup_put_other k k' o es : k <> k' -> lookup_entry k (put k' o es) = lookup_entry k es.
Proof. intros H. rewrite lookup_put. now apply bytes_eqb_neq in H as ->. Qed.

Section NodeInd.
  Variable P : node -> Prop.
  Hypothesis HF : forall d, P (File d).
  Hypothesis HS : P Special.
  Hypothesis HD : forall es, Forall (fun e => P (snd e)) es -> P (Dir es).
  Fixpoint node_ind' (n : node) : P n :=
    match n with
    | File d => HF d
    | Special => HS
    | Dir es => HD es ((fix go (es : list (name * node)) : Forall (fun e => P (snd e)) es :=
                          match es with
                          | [] => Forall_nil _
                          | e :: r => Forall_cons e (node_ind' (snd e)) (go r)
                          end) es)
    end.
End NodeInd.

Section Copy.
  Variable f : name -> bool.
  Variable chunk : N.
  Hypothesis Hc : 1 <= chunk.

  Notation cnode := (copy_node std_body f chunk).

  (* what is at the destination path after copying [c] to a path where nothing was *)
  Definition pruned_o (c : node) : option node := match c with Special => None | _ => Some (prune f c) end.

  Lemma copy_entries_fresh es :
    Forall (fun e => wf_tree (snd e) = true -> cnode true (snd e) None = Ok (pruned_o (snd e))) es ->
    Forall (fun e => wf_tree (snd e) = true) es ->
    NoDup (map fst es) -> forall des, (forall k, In k (map fst es) -> lookup_entry k des = None) ->
    copy_entries f (cnode true) es des = Ok (des ++ prune_entries (prune f) f es).
  Proof.
    induction es as [|[k c] r IH]; intros HI HW HN des Hfresh; cbn [copy_entries prune_entries]; [now rewrite app_nil_r|].
    apply Forall_cons_iff in HI as [HI1 HI2], HW as [HW1 HW2]. apply NoDup_cons_iff in HN as [HN1 HN2]. cbn [snd] in HI1, HW1.
    assert (Hk : lookup_entry k des = None) by (apply Hfresh; now left).
    assert (Hr : forall k', In k' (map fst r) -> lookup_entry k' des = None) by (intros k' Hk'; apply Hfresh; now right).
    destruct (f k); [|now apply IH]. rewrite Hk, (HI1 HW1). cbn [bind].
    (* the names still to come stay fresh: only [k] is touched *)
    rewrite (IH HI2 HW2 HN2) by (intros k' Hk'; rewrite lookup_put_other; [now apply Hr | now intros ->]).
    destruct c; cbn [pruned_o put snd]; rewrite ?set_entry_fresh, <- ?app_assoc by exact Hk; reflexivity.
  Qed.

  Lemma copy_node_fresh src : wf_tree src = true ->
    cnode true src None = Ok (pruned_o src).
  Proof.
    induction src as [d| |es IH] using node_ind'; intros HW.
    - cbn [copy_node]. fold (copy_file chunk d). now rewrite copy_file_id.
    - reflexivity.
    - apply wf_dir in HW as [HN HW].
      cbn [copy_node bind]. now rewrite (copy_entries_fresh es IH HW HN []).
  Qed.

  Lemma copy_node_fresh_top ign src : wf_tree src = true -> src <> Special ->
    cnode ign src None = Ok (Some (prune f src)).
  Proof. intros HW HS. pose proof (copy_node_fresh src HW) as E. now destruct src. Qed.

  Lemma copy_node_dir ign es dst r : cnode ign (Dir es) dst = Ok r ->
    exists des des', (dst = None /\ des = [] \/ dst = Some (Dir des)) /\
                     copy_entries f (cnode true) es des = Ok des' /\ r = Some (Dir des').
  Proof.
    cbn [copy_node]. destruct dst as [[|des|]|]; try discriminate; cbn [bind];
      destruct (copy_entries _ _ es _) as [des'| | |] eqn:E; try discriminate; intros [= <-].
    - exists des, des'. auto.
    - exists [], des'. auto.
  Qed.

  Lemma copy_node_None ign src dst : cnode ign src dst = Ok None -> dst = None.
  Proof.
    destruct src as [d|es|].
    - cbn [copy_node]. destruct dst as [[| |]|]; try discriminate; try reflexivity.
      destruct (copy_file_with std_body chunk d); discriminate.
    - intros H. apply copy_node_dir in H as (? & ? & _ & _ & [=]).
    - cbn [copy_node]. destruct ign; [now intros [= ->]|discriminate].
  Qed.

  (* the for loop: each accepted listed name gets the outcome of its recursive call, every other name is untouched *)
  Lemma copy_entries_lookup rec (Hn : forall c d, rec c d = Ok None -> d = None) :
    forall es des des', NoDup (map fst es) -> copy_entries f rec es des = Ok des' ->
    forall k, match (if f k then lookup_entry k es else None) with
              | Some c => exists d', rec c (lookup_entry k des) = Ok d' /\ lookup_entry k des' = d'
              | None => lookup_entry k des' = lookup_entry k des
              end.
  Proof.
    induction es as [|[k0 c0] r IH]; intros des des' HN Hrun k; cbn [copy_entries lookup_entry] in *.
    - injection Hrun as <-. now destruct (f k).
    - apply NoDup_cons_iff in HN as [HN1 HN2]. destruct (bytes_eqb k k0) eqn:E.
      + apply bytes_eqb_eq in E. subst k0. destruct (f k) eqn:Fk.
        * destruct (rec c0 (lookup_entry k des)) as [d0| | |] eqn:R0; try discriminate.
          specialize (IH _ _ HN2 Hrun k). rewrite Fk, (lookup_entry_None k r HN1) in IH.
          exists d0. split; [reflexivity|]. rewrite IH, lookup_put, bytes_eqb_refl.
          destruct d0; [reflexivity | exact (Hn _ _ R0)].
        * specialize (IH _ _ HN2 Hrun k). now rewrite Fk in IH.
      + destruct (f k0); [destruct (rec c0 (lookup_entry k0 des)); try discriminate|];
          specialize (IH _ _ HN2 Hrun k); rewrite ?lookup_put, ?E in IH; exact IH.
  Qed.

  Lemma lookup_prune_entries es k : NoDup (map fst es) ->
    lookup_entry k (prune_entries (prune f) f es) =
    if f k then match lookup_entry k es with Some Special => None | Some c => Some (prune f c) | None => None end
    else None.
  Proof.
    induction es as [|[k0 c0] r IH]; intros HN.
    - cbn. destruct (f k); reflexivity.
    - apply NoDup_cons_iff in HN as [HN1 HN2]. specialize (IH HN2).
      cbn [prune_entries lookup_entry]. destruct (bytes_eqb k k0) eqn:E.
      + apply bytes_eqb_eq in E. subst k0. destruct (f k) eqn:Fk; [|exact IH].
        destruct c0; cbn [lookup_entry]; rewrite ?bytes_eqb_refl; try reflexivity.
        now rewrite IH, (lookup_entry_None k r HN1).
      + destruct (f k0); [|exact IH]. destruct c0; cbn [lookup_entry]; rewrite ?E; exact IH.
  Qed.

  (* [r] is [dst] overlaid with the tree [src']: files of src' are there with their bytes, directories of src' are
     directories, every path src' does not have is exactly as it was *)
  Definition overlays (src' : node) (dst r : option node) : Prop :=
    forall p, match lookup p src' with
              | Some (File d) => lookup_o p r = Some (File d)
              | Some (Dir _) => dir_at p r = true
              | _ => lookup_o p r = lookup_o p dst
              end.

  Lemma lookup_o_cons k q es : lookup_o (k :: q) (Some (Dir es)) = lookup_o q (lookup_entry k es).
  Proof. cbn. destruct (lookup_entry k es); reflexivity. Qed.

  Lemma copy_node_overlays src : wf_tree src = true -> forall ign dst r,
    cnode ign src dst = Ok r -> overlays (prune f src) dst r.
  Proof.
    induction src as [d| |es IH] using node_ind'; intros HW ign dst r Hrun p.
    - cbn [copy_node] in Hrun. fold (copy_file chunk d) in Hrun. rewrite copy_file_id in Hrun by exact Hc.
      destruct p; cbn [prune lookup]; destruct dst as [[| |]|]; try discriminate; now injection Hrun as <-.
    - cbn [copy_node] in Hrun. destruct ign; [|discriminate]. injection Hrun as <-. now destruct p.
    - apply wf_dir in HW as [HN HW]. apply copy_node_dir in Hrun as (des & des' & Hdst & Hent & ->).
      cbn [prune]. destruct p as [|k q]; [reflexivity|].
      replace (lookup_o (k :: q) dst) with (lookup_o q (lookup_entry k des))
        by (destruct Hdst as [[-> ->] | ->]; [reflexivity | symmetry; apply lookup_o_cons]).
      unfold dir_at. rewrite lookup_o_cons. cbn [lookup]. rewrite (lookup_prune_entries es k HN).
      pose proof (copy_entries_lookup (cnode true) (copy_node_None true) es des des' HN Hent k) as L.
      destruct (f k); [|now rewrite L].
      destruct (lookup_entry k es) as [c|] eqn:Ek; [|now rewrite L].
      destruct L as (d' & Hrec & ->). apply lookup_entry_In in Ek.
      rewrite Forall_forall in IH, HW. specialize (IH _ Ek (HW _ Ek) true _ _ Hrec q). cbn [snd] in IH.
      destruct c; [exact IH | exact IH | cbn [copy_node] in Hrec; now injection Hrec as <-].
  Qed.
  (* no accepted source file lands on an existing directory (or special entry), no accepted source directory on an
     existing non-directory *)
  Fixpoint compat (src : node) (dst : option node) : bool :=
    match src with
    | File _ => match dst with Some (Dir _) => false | Some Special => false | _ => true end
    | Special => true
    | Dir es =>
        match dst with
        | None => true
        | Some (Dir des) =>
            (fix all (es : list (name * node)) : bool :=
               match es with
               | [] => true
               | (k, c) :: r => (if f k then compat c (lookup_entry k des) else true) && all r
               end) es
        | Some _ => false
        end
    end.

  Lemma compat_None src : compat src None = true.
  Proof. destruct src; reflexivity. Qed.

  Lemma compat_dir es des : compat (Dir es) (Some (Dir des)) = true ->
    forall k c, In (k, c) es -> f k = true -> compat c (lookup_entry k des) = true.
  Proof.
    cbn [compat]. induction es as [|[k0 c0] r IH]; intros H k c HI Fk; [destruct HI|].
    apply andb_true_iff in H as [H1 H2]. destruct HI as [[= -> ->]|HI]; [now rewrite Fk in H1 | exact (IH H2 k c HI Fk)].
  Qed.

  Definition succeeds (src : node) : Prop :=
    wf_tree src = true -> forall ign dst, compat src dst = true -> (ign = true \/ src <> Special) ->
    exists r, cnode ign src dst = Ok r.

  (* the for loop returns when each recursive call, seeing what was at its name before the loop, does *)
  Lemma copy_entries_ok rec es : NoDup (map fst es) -> forall des,
    (forall k c, In (k, c) es -> f k = true -> exists d, rec c (lookup_entry k des) = Ok d) ->
    exists des', copy_entries f rec es des = Ok des'.
  Proof.
    induction es as [|[k c] r IH]; intros HN des H; cbn [copy_entries]; [now exists des|].
    apply NoDup_cons_iff in HN as [HN1 HN2].
    assert (Hr : forall k' c', In (k', c') r -> f k' = true -> exists d, rec c' (lookup_entry k' des) = Ok d)
      by (intros k' c' Hin; apply H; now right).
    destruct (f k) eqn:Fk; [|now apply IH]. destruct (H k c (or_introl eq_refl) Fk) as (d & ->). cbn [bind].
    apply (IH HN2). intros k' c' Hin. rewrite lookup_put_other; [now apply Hr|].
    intros ->. apply HN1. exact (in_map fst _ _ Hin).
  Qed.

  Theorem copy_node_succeeds src : succeeds src.
  Proof.
    induction src as [d| |es IH] using node_ind'; intros HW ign dst Hcp Hign.
    - cbn [copy_node]. fold (copy_file chunk d). rewrite copy_file_id by exact Hc.
      destruct dst as [[| |]|]; try discriminate; eexists; reflexivity.
    - destruct Hign as [->|H]; [|contradiction]. now exists dst.
    - apply wf_dir in HW as [HN HW]. rewrite Forall_forall in IH, HW.
      assert (Hes : forall des, (dst = None /\ des = [] \/ dst = Some (Dir des)) ->
                    exists des', copy_entries f (cnode true) es des = Ok des').
      { intros des Hdst. apply (copy_entries_ok _ es HN). intros k c Hin Fk.
        apply (IH _ Hin (HW _ Hin) true); [|now left].
        destruct Hdst as [[_ ->] | ->]; [apply compat_None | exact (compat_dir es des Hcp k c Hin Fk)]. }
      cbn [copy_node]. destruct dst as [[d|des|]|]; try discriminate; cbn [bind].
      + destruct (Hes des) as (des' & ->); [now right | now eexists].
      + destruct (Hes []) as (des' & ->); [now left | now eexists].
  Qed.
End Copy.

Lemma lookup_prune_eq f : forall p t, wf_tree t = true -> t <> Special ->
  lookup p (prune f t) =
  if forallb f p then match lookup p t with Some Special | None => None | Some n0 => Some (prune f n0) end else None.
Proof.
  induction p as [|k q IH]; intros t HW HS.
  - cbn. now destruct t.
  - destruct t as [d|es|]; [cbn; now destruct (f k && forallb f q) | | contradiction].
    apply wf_dir in HW as [HN HW]. cbn [prune lookup forallb]. rewrite (lookup_prune_entries f es k HN).
    destruct (f k); cbn [andb]; [|reflexivity].
    destruct (lookup_entry k es) as [c|] eqn:Ek; [|now destruct (forallb f q)].
    assert (HWc : wf_tree c = true).
    { rewrite Forall_forall in HW. exact (HW _ (lookup_entry_In _ _ _ Ek)). }
    destruct c as [d|es'|]; [now apply IH | now apply IH |]. destruct q as [|k' q]; cbn; [reflexivity | now destruct (f k' && forallb f q)].
Qed.

(* below the root, which stays whatever it is *)
Lemma lookup_prune f p t n : wf_tree t = true -> p <> [] ->
  (lookup p (prune f t) = Some n <->
   exists n0, lookup p t = Some n0 /\ n0 <> Special /\ forallb f p = true /\ n = prune f n0).
Proof.
  intros HW Hp. destruct t as [d|es|].
  - destruct p as [|k q]; [contradiction | split; [discriminate | now intros (n0 & [=] & _)]].
  - rewrite lookup_prune_eq by easy. destruct (forallb f p).
    + destruct (lookup p (Dir es)) as [[d|es'|]|];
        (split; [intros [= <-]; eexists; now repeat split | intros (n0 & [= <-] & HS & _ & ->); congruence]).
    + split; [discriminate | now intros (n0 & _ & _ & [=] & _)].
  - destruct p as [|k q]; [contradiction | split; [discriminate | now intros (n0 & [=] & _)]].
Qed.

Lemma prune_ext f f' : (forall k, f k = f' k) -> forall t, prune f t = prune f' t.
Proof.
  intros E t. induction t as [d| |es IH] using node_ind'; try reflexivity.
  cbn [prune]. f_equal. induction IH as [|[k c] r H1 _ IHr]; [reflexivity|]. cbn [prune_entries snd] in *.
  rewrite <- E, IHr. destruct (f k), c; now rewrite ?H1.
Qed.

Definition rmap {A B} (g : A -> B) (r : result A) : result B :=
  match r with Ok a => Ok (g a) | Raise e => Raise e | OutOfFuel => OutOfFuel | Unmodelled => Unmodelled end.

Definition swap_skel (k : skel) : skel :=
  {| sk_top := {| tk_probe := other (tk_probe (sk_top k)); tk_dir_first := tk_dir_first (sk_top k);
                  tk_raise_unless_ignored := tk_raise_unless_ignored (sk_top k) |};
     sk_file := {| fk_src := other (fk_src (sk_file k)); fk_src_mode := fk_src_mode (sk_file k);
                   fk_dst := other (fk_dst (sk_file k)); fk_dst_mode := fk_dst_mode (sk_file k);
                   fk_body := fk_body (sk_file k) |};
     sk_dir := {| dk_mk := other (dk_mk (sk_dir k)); dk_list := other (dk_list (sk_dir k));
                  dk_guard := dk_guard (sk_dir k);
                  dk_src_join := other (dk_src_join (sk_dir k)); dk_dst_join := other (dk_dst_join (sk_dir k));
                  dk_ignore_invalid := dk_ignore_invalid (sk_dir k) |} |}.

Lemma side_eqb_other a b : side_eqb (other a) (other b) = side_eqb a b.
Proof. destruct a, b; reflexivity. Qed.
Lemma get_other_swap s w : get (other s) (swap w) = get s w.
Proof. destruct s, w; reflexivity. Qed.
Lemma set_other_swap s v w : set (other s) v (swap w) = swap (set s v w).
Proof. destruct s, w; reflexivity. Qed.
Lemma get_set_same s v w : get s (set s v w) = v.
Proof. now destruct s. Qed.
Lemma set_get s w : set s (get s w) w = w.
Proof. now destruct s, w. Qed.
Lemma get_set_other s v w : get s (set (other s) v w) = get s w.
Proof. now destruct s. Qed.

Lemma coherent_swap k : coherent (swap_skel k) = coherent k.
Proof. destruct k as [[] [] []]. unfold coherent, src_side, dst_side. cbn -[side_eqb other]. now rewrite !side_eqb_other. Qed.

(* any function family and its side-swapped twin do the same thing with the roles of the two sides exchanged *)
Theorem transfer_swap k flt chunk ign w :
  transfer (swap_skel k) flt chunk ign (swap w) = rmap swap (transfer k flt chunk ign w).
Proof.
  unfold transfer. rewrite coherent_swap. destruct (coherent k); [|reflexivity].
  change (src_side (swap_skel k)) with (other (src_side k)).
  change (dst_side (swap_skel k)) with (other (dst_side k)).
  change (fk_body (sk_file (swap_skel k))) with (fk_body (sk_file k)).
  change (dk_guard (sk_dir (swap_skel k))) with (dk_guard (sk_dir k)).
  rewrite !get_other_swap. destruct (get (src_side k) w) as [src|].
  - destruct (copy_node _ _ chunk ign src (get (dst_side k) w)) as [d| | |]; cbn [bind rmap]; try reflexivity.
    now rewrite set_other_swap.
  - destruct ign; reflexivity.
Qed.

Lemma swap_std_skel g s d : swap_skel (std_skel g s d) = std_skel g (other s) (other d).
Proof. reflexivity. Qed.

(* The standard family that copies from side [s] to the other side; [upload g] is the one with s = Local, [download g]
   the one with s = Remote, and what follows holds of both. *)
Lemma transfer_std g s flt chunk ign w :
  transfer (std_skel g s (other s)) flt chunk ign w =
  match get s w with
  | None => if ign then Ok w else Raise ValueError
  | Some src => do d <- copy_node std_body (guard g flt) chunk ign src (get (other s) w); Ok (set (other s) d w)
  end.
Proof. now destruct s. Qed.

Section Direction.
  Variables (g : fguard) (s : side) (flt : option filter_obj) (chunk : N) (t : node) (w : world).
  Hypothesis Hc : 1 <= chunk.
  Hypothesis HW : wf_tree t = true.
  Hypothesis Hsrc : get s w = Some t.
  Notation run ign := (transfer (std_skel g s (other s)) flt chunk ign w).

  Theorem transfer_fresh ign : t <> Special -> get (other s) w = None ->
    run ign = Ok (set (other s) (Some (prune (guard g flt) t)) w).
  Proof. intros HS Hdst. rewrite transfer_std, Hsrc, Hdst. now rewrite copy_node_fresh_top. Qed.

  (* with the `is None` guard, or with any filter object that is true in a boolean context, the guard is the filter *)
  Lemma guard_wanted : g = GIsNone \/ truthy_or_none flt = true -> forall k, guard g flt k = wanted flt k.
  Proof.
    intros H k. destruct flt as [o|]; [|reflexivity]. cbn [guard wanted].
    destruct g; [|reflexivity]. destruct H as [H|H]; [discriminate|]. cbn in H. now rewrite H.
  Qed.

  Theorem transfer_fresh_wanted ign : t <> Special -> get (other s) w = None -> g = GIsNone \/ truthy_or_none flt = true ->
    run ign = Ok (set (other s) (Some (prune (wanted flt) t)) w).
  Proof. intros HS Hdst Hg. now rewrite (transfer_fresh ign HS Hdst), (prune_ext _ _ (guard_wanted Hg) t). Qed.

  (* into whatever is at the destination path: the source side is not modified, the destination is overlaid *)
  Theorem transfer_existing ign w' : run ign = Ok w' ->
    get s w' = Some t /\ overlays (prune (guard g flt) t) (get (other s) w) (get (other s) w').
  Proof.
    rewrite transfer_std, Hsrc.
    destruct (copy_node _ _ chunk ign t _) as [d| | |] eqn:E; cbn [bind]; try discriminate.
    intros [= <-]. rewrite get_set_other, get_set_same. split; [exact Hsrc|].
    exact (copy_node_overlays (guard g flt) chunk Hc t HW ign _ d E).
  Qed.

  Theorem transfer_existing_succeeds ign : t <> Special -> compat (guard g flt) t (get (other s) w) = true ->
    exists w', run ign = Ok w'.
  Proof.
    intros HS Hcp. rewrite transfer_std, Hsrc.
    destruct (copy_node_succeeds (guard g flt) chunk Hc t HW ign _ Hcp (or_intror HS)) as (r & ->). now eexists.
  Qed.
End Direction.

Theorem transfer_invalid g s flt chunk w : get s w = None \/ get s w = Some Special ->
  transfer (std_skel g s (other s)) flt chunk false w = Raise ValueError /\
  transfer (std_skel g s (other s)) flt chunk true w = Ok w.
Proof. rewrite !transfer_std. intros [-> | ->]; [now split|]. cbn. now rewrite set_get. Qed.

(* with the truthiness guard a filter object that is false in a boolean context is not consulted at all:
   a predicate that rejects every name (e.g. an empty callable set of accepted names) lets everything through *)
Definition falsy_reject_all : filter_obj := {| fo_truthy := false; fo_pred := fun _ => false |}.
Theorem truthiness_guard_ignores_falsy_filter s chunk ign k data w : 1 <= chunk ->
  get s w = Some (Dir [(k, File data)]) -> get (other s) w = None ->
  wanted (Some falsy_reject_all) k = false /\
  transfer (std_skel GTruthy s (other s)) (Some falsy_reject_all) chunk ign w = Ok (set (other s) (Some (Dir [(k, File data)])) w).
Proof.
  intros Hc Hsrc Hdst. split; [reflexivity|].
  now rewrite (transfer_fresh GTruthy s _ chunk (Dir [(k, File data)]) w Hc eq_refl Hsrc ign) by (discriminate || exact Hdst).
Qed.

Lemma prune_all f t : (forall k, f k = true) -> no_special t = true -> prune f t = t.
Proof.
  intros Hf. induction t as [d| |es IH] using node_ind'; intros HS; try reflexivity.
  apply no_special_dir in HS. cbn [prune]. f_equal.
  induction IH as [|[k c] r H1 _ IHr]; [reflexivity|]. apply Forall_cons_iff in HS as [S1 S2]. cbn [prune_entries snd] in *.
  rewrite Hf, (IHr S2), (H1 S1). now destruct c.
Qed.

Theorem upload_package_fresh g chunk t : 1 <= chunk -> wf_tree t = true -> no_special t = true ->
  upload_package g chunk {| at_local := Some t; at_remote := None |} = Ok {| at_local := Some t; at_remote := Some t |}.
Proof.
  intros Hc HW HS.
  pose proof (transfer_fresh g Local None chunk t {| at_local := Some t; at_remote := None |} Hc HW eq_refl false) as E.
  rewrite (prune_all (guard g None) t (fun _ => eq_refl) HS) in E. apply E; [now intros -> | reflexivity].
Qed.
