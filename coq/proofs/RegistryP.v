(* Proofs about model/Registry.v.  Seen through [lookup], every command gives one value to a set of
   keys (name, address) and logs exactly the membership changes ([assigns], [exec_assigns]); what
   holds of every entry of the table whatever == is on ports goes through [exec_inv]. *)
From V Require Import lib.Base lib.Sx model.Brine model.Registry gen.Gen_registry.
From Coq Require Import String Sorting.Sorted Sorting.Permutation.
Open Scope Z_scope.

Definition Fgen : facts :=
  {| lookup_guarded := Gen_registry.cmd_lookup_guarded;
     notify_only_present := Gen_registry.remove_notifies_only_present;
     tcp_timeout := Gen_registry.tcp_accepted_timeout;
     reply_guarded := Gen_registry.reply_dump_guarded;
     register_validates := Gen_registry.register_validates_reply;
     tcp_closes_unanswered := Gen_registry.tcp_recv_closes_unanswered;
     register_self_equal := Gen_registry.register_requires_self_equal |}.

Definition equivb {K} (eqb : K -> K -> bool) : Prop :=
  (forall a, eqb a a = true) /\ (forall a b, eqb a b = eqb b a)
  /\ (forall a b c, eqb a b = true -> eqb b c = true -> eqb a c = true).

Lemma equivb_of_eq {K} (eqb : K -> K -> bool) : (forall a b, eqb a b = true <-> a = b) -> equivb eqb.
Proof.
  intros H. assert (R : forall a, eqb a a = true) by (intros a; now apply H).
  split; [exact R|split].
  - intros a b. destruct (eqb a b) eqn:E1.
    + apply H in E1 as ->. now rewrite R.
    + destruct (eqb b a) eqn:E2; auto. apply H in E2 as ->. now rewrite R in E1.
  - intros a b c E1. now apply H in E1 as ->.
Qed.

Lemma text_eqb_eq a b : text_eqb a b = true <-> a = b.
Proof.
  revert b. induction a as [|x a IH]; intros [|y b]; cbn; split; try discriminate; auto.
  - intros H. apply andb_prop in H as [H1 H2]. apply N.eqb_eq in H1. apply IH in H2. now subst.
  - intros [= -> ->]. rewrite N.eqb_refl. now apply IH.
Qed.
Lemma text_eqb_refl a : text_eqb a a = true.
Proof. now apply text_eqb_eq. Qed.
Lemma text_equiv : equivb text_eqb.
Proof. exact (equivb_of_eq _ text_eqb_eq). Qed.

Section DictP.
Context {K V : Type} (eqb : K -> K -> bool).
Hypothesis E : equivb eqb.

Lemma eqb_left a b c : eqb a b = true -> eqb a c = eqb b c.
Proof.
  pose proof E as (_ & S & T). intros H. destruct (eqb b c) eqn:E2; [now apply (T a b c)|].
  destruct (eqb a c) eqn:E1; auto. rewrite <- E2. symmetry. apply (T b a c); [now rewrite S|exact E1].
Qed.
Lemma eqb_right a b c : eqb a b = true -> eqb c a = eqb c b.
Proof. pose proof E as (_ & S & _). intros H. rewrite (S c a), (S c b). now apply eqb_left. Qed.

Fixpoint d_nodup (d : list (K * V)) : Prop :=
  match d with [] => True | (k, _) :: r => d_find eqb k r = None /\ d_nodup r end.

Lemma find_congr k k' (d : list (K * V)) : eqb k k' = true -> d_find eqb k d = d_find eqb k' d.
Proof.
  intros H. induction d as [|[k0 v0] r IH]; cbn; auto.
  now rewrite (eqb_right k k' k0 H), IH.
Qed.

Lemma find_set k v k' (d : list (K * V)) :
  d_find eqb k' (d_set eqb k v d) = if eqb k k' then Some v else d_find eqb k' d.
Proof.
  pose proof E as (_ & S & _). induction d as [|[k0 v0] r IH]; cbn; auto.
  destruct (eqb k0 k) eqn:E0; cbn.
  - rewrite (eqb_left k0 k k' E0). now destruct (eqb k k').
  - rewrite IH. destruct (eqb k0 k') eqn:E1; auto.
    now rewrite <- (eqb_right k0 k' k E1), (S k k0), E0.
Qed.

Lemma find_pop k k' (d : list (K * V)) : d_nodup d ->
  d_find eqb k' (d_pop eqb k d) = if eqb k k' then None else d_find eqb k' d.
Proof.
  induction d as [|[k0 v0] r IH]; cbn; [now destruct (eqb k k')|]. intros [H1 H2].
  destruct (eqb k0 k) eqn:E0; cbn.
  - rewrite (eqb_left k0 k k' E0). destruct (eqb k k') eqn:E1; [|reflexivity].
    rewrite <- H1. symmetry. apply find_congr. now rewrite (eqb_left k0 k k' E0).
  - rewrite (IH H2). destruct (eqb k k') eqn:E1; [|reflexivity].
    now rewrite <- (eqb_right k k' k0 E1), E0.
Qed.

Lemma nodup_set k v (d : list (K * V)) : d_nodup d -> d_nodup (d_set eqb k v d).
Proof.
  pose proof E as (_ & S & _). induction d as [|[k0 v0] r IH]; cbn; auto. intros [H1 H2].
  destruct (eqb k0 k) eqn:E0; cbn; auto. split; auto.
  now rewrite find_set, (S k k0), E0.
Qed.

Lemma nodup_pop k (d : list (K * V)) : d_nodup d -> d_nodup (d_pop eqb k d).
Proof.
  induction d as [|[k0 v0] r IH]; cbn; auto. intros [H1 H2].
  destruct (eqb k0 k) eqn:E0; cbn; auto. split; auto.
  rewrite find_pop by auto. now destruct (eqb k k0).
Qed.

Lemma find_in k v (d : list (K * V)) : d_nodup d -> In (k, v) d -> d_find eqb k d = Some v.
Proof.
  pose proof E as (R & _). induction d as [|[k0 v0] r IH]; cbn; [tauto|]. intros [H1 H2] [[= -> ->]|H].
  - now rewrite R.
  - destruct (eqb k0 k) eqn:E0; auto.
    rewrite (find_congr k0 k r E0), (IH H2 H) in H1. discriminate.
Qed.

Lemma find_some k v (d : list (K * V)) : d_find eqb k d = Some v -> exists k0, In (k0, v) d /\ eqb k0 k = true.
Proof.
  induction d as [|[k0 v0] r IH]; cbn; [discriminate|].
  destruct (eqb k0 k) eqn:E0.
  - intros [= ->]. exists k0. auto.
  - intros H. destruct (IH H) as (k1 & A & B). exists k1. auto.
Qed.

Lemma nodup_count k (d : list (K * V)) : d_nodup d ->
  (List.length (filter (fun e => eqb (fst e) k) d) <= 1)%nat.
Proof.
  pose proof E as (_ & S & _). induction d as [|[k0 v0] r IH]; cbn; auto. intros [H1 H2].
  destruct (eqb k0 k) eqn:E0; cbn; auto.
  rewrite (find_congr k0 k r E0) in H1. clear - H1.
  induction r as [|[k1 v1] r IH]; cbn in *; auto. destruct (eqb k1 k); [discriminate|auto].
Qed.

Lemma exists_find (p : V -> bool) k (d : list (K * V)) : d_nodup d ->
  existsb (fun x => p (snd x) && eqb (fst x) k) d = match d_find eqb k d with Some v => p v | None => false end.
Proof.
  induction d as [|[k0 v0] r IH]; cbn; auto. intros [H1 H2]. rewrite (IH H2).
  destruct (eqb k0 k) eqn:E0; [|now rewrite andb_false_r].
  now rewrite <- (find_congr k0 k r E0), H1, andb_true_r, orb_false_r.
Qed.

Lemma Forall_set (Q : K * V -> Prop) k v (d : list (K * V)) :
  (forall k' v', Q (k', v') -> Q (k', v)) -> Q (k, v) -> Forall Q d -> Forall Q (d_set eqb k v d).
Proof.
  intros H Qk. induction 1 as [|[k0 v0] r H0 Hr IH]; cbn; [now repeat constructor|].
  destruct (eqb k0 k); constructor; eauto.
Qed.
Lemma Forall_pop (Q : K * V -> Prop) k (d : list (K * V)) : Forall Q d -> Forall Q (d_pop eqb k d).
Proof.
  induction 1 as [|[k0 v0] r H0 Hr IH]; cbn; [constructor|].
  destruct (eqb k0 k); [exact Hr|now constructor].
Qed.
End DictP.

Section ModelP.
Variable upper lower : text -> text.
Variable fso : list pyval -> list pyval.
Variable keq : pyval -> pyval -> bool.
Variable enc : pyval -> bool.
Variable F : facts.
Variable pruning : Z.
Hypothesis keq_refl : forall a, keq a a = true.
Hypothesis keq_sym : forall a b, keq a b = keq b a.
Hypothesis keq_trans : forall a b c, keq a b = true -> keq b c = true -> keq a c = true.

Notation aeq := (Registry.aeq keq).
Notation lookup := (Registry.lookup keq).
Notation member := (Registry.member keq).
Notation state_after := (Registry.state_after keq F pruning).
Notation exec := (Registry.exec keq F pruning).

Lemma aeq_equiv : equivb aeq.
Proof.
  unfold Registry.aeq. split; [|split].
  - intros a. now rewrite text_eqb_refl, keq_refl.
  - intros a b. now rewrite (proj1 (proj2 text_equiv)), keq_sym.
  - intros a b c H1 H2. apply andb_prop in H1 as [A1 A2]. apply andb_prop in H2 as [B1 B2].
    apply text_eqb_eq in A1 as ->. now rewrite B1, (keq_trans _ _ _ A2 B2).
Qed.

Definition table_of (n : text) (s : services) : table :=
  match d_find text_eqb n s with Some tb => tb | None => [] end.

Lemma lookup_table n a s : lookup n a s = d_find aeq a (table_of n s).
Proof. unfold Registry.lookup, table_of. now destruct (d_find text_eqb n s). Qed.

Lemma member_lookup n a s : member n a s = match lookup n a s with Some _ => true | None => false end.
Proof. reflexivity. Qed.

Lemma member_true n a s : member n a s = true <-> exists t, lookup n a s = Some t.
Proof. rewrite member_lookup. destruct (lookup n a s); split; eauto; [discriminate|now intros [t H]]. Qed.

Lemma lookup_congr n a b s : aeq a b = true -> lookup n a s = lookup n b s.
Proof. intros H. now rewrite !lookup_table, (find_congr aeq aeq_equiv a b). Qed.

Lemma member_same n N a b s : text_eqb n N = true -> aeq a b = true -> member n a s = member N b s.
Proof. intros H1 H2. apply text_eqb_eq in H1 as ->. now rewrite !member_lookup, (lookup_congr N a b s H2). Qed.

Definition wf (s : services) : Prop := d_nodup text_eqb s /\ forall n, d_nodup aeq (table_of n s).


Definition note_is (add : bool) (N : text) (b : addr) (x : note) : bool :=
  match x with
  | Added n a => add && (text_eqb n N && aeq a b)
  | Removed n a => negb add && (text_eqb n N && aeq a b)
  end.
Definition count (add : bool) (N : text) (b : addr) (m : list note) : nat :=
  List.length (filter (note_is add N b) m).
Definition ind (c : bool) : nat := if c then 1%nat else 0%nat.

Lemma count_app add N b m1 m2 : count add N b (m1 ++ m2) = (count add N b m1 + count add N b m2)%nat.
Proof. unfold count. now rewrite filter_app, app_length. Qed.
Lemma count_if add N b (c : bool) x : count add N b (if c then [x] else []) = ind (c && note_is add N b x).
Proof. destruct c; [|reflexivity]. unfold count. cbn. now destruct (note_is add N b x). Qed.

(* [r] = (table, log) comes from [s] by giving the value [v] to every key that [hit] selects; where
   _remove_service notifies only what it removed, the log is exactly the membership changes *)
Definition assigns (hit : text -> addr -> bool) (v : option Z) (s : services) (r : services * list note) : Prop :=
  (forall N b, lookup N b (fst r) = if hit N b then v else lookup N b s)
  /\ (notify_only_present F = true -> forall N b,
        count true N b (snd r) = ind (negb (member N b s) && member N b (fst r))
        /\ count false N b (snd r) = ind (member N b s && negb (member N b (fst r)))).

Lemma assigns_nil hit v s : (forall N b, hit N b = false) -> assigns hit v s (s, []).
Proof.
  intros H. split.
  - intros N b. now rewrite H.
  - intros _ N b. cbn. now destruct (member N b s).
Qed.

(* one key: the lookup changes at (n, a) only, and a note is logged exactly when membership there changes *)
Lemma key_assigns n a v s r :
  let ad := match v with Some _ => true | None => false end in
  (forall N b, lookup N b (fst r) = if text_eqb n N && aeq a b then v else lookup N b s) ->
  (notify_only_present F = true ->
   snd r = if (if ad then negb (member n a s) else member n a s)
           then [if ad then Added n a else Removed n a] else []) ->
  assigns (fun N b => text_eqb n N && aeq a b) v s r.
Proof.
  intros ad L HN. split; [exact L|]. intros HF N b.
  rewrite (HN HF), !count_if, (member_lookup N b (fst r)), L. subst ad.
  destruct (text_eqb n N && aeq a b) eqn:H.
  - apply andb_prop in H as [H1 H2]. rewrite (member_same n N a b s H1 H2).
    destruct v, (member N b s); cbn; rewrite ?H1, ?H2; now split.
  - rewrite <- member_lookup. destruct v, (member n a s), (member N b s); cbn; rewrite ?H; now split.
Qed.

Lemma assigns_seq h1 h2 h v s r1 r2 :
  (forall N b, h N b = h1 N b || h2 N b) ->
  assigns h1 v s r1 -> assigns h2 v (fst r1) r2 -> assigns h v s (fst r2, snd r1 ++ snd r2).
Proof.
  intros Hh (L1 & C1) (L2 & C2). split; cbn [fst snd].
  - intros N b. rewrite L2, L1, Hh. now destruct (h1 N b), (h2 N b).
  - intros HF N b. destruct (C1 HF N b) as [A1 B1]. destruct (C2 HF N b) as [A2 B2].
    rewrite !count_app, A1, B1, A2, B2, !member_lookup, L2, L1.
    destruct (h1 N b), (h2 N b), v, (lookup N b s); split; reflexivity.
Qed.


(* kept free of any assumption on [keq]: the theorem that every answer is delivered has none *)
Definition keys_ok (P : addr -> Prop) (s : services) : Prop :=
  Forall (fun e => Forall (fun x => P (fst x)) (snd e)) s.

Lemma keys_ok_table P n s : keys_ok P s -> Forall (fun x => P (fst x)) (table_of n s).
Proof.
  intros K. unfold table_of. destruct (d_find text_eqb n s) eqn:H; [|constructor].
  apply find_some in H as (n0 & H & _). unfold keys_ok in K. rewrite Forall_forall in K. exact (K _ H).
Qed.

Lemma table_add now n a s N :
  table_of N (fst (add_service keq now n a s)) = if text_eqb n N then d_set aeq a now (table_of n s) else table_of N s.
Proof.
  unfold add_service, table_of. cbn [fst]. rewrite (find_set text_eqb text_equiv).
  now destruct (text_eqb n N).
Qed.

Lemma lookup_add now n a s N b :
  lookup N b (fst (add_service keq now n a s)) = if text_eqb n N && aeq a b then Some now else lookup N b s.
Proof.
  rewrite !lookup_table, table_add. destruct (text_eqb n N) eqn:EN; [|reflexivity].
  apply text_eqb_eq in EN as <-. apply (find_set aeq aeq_equiv).
Qed.

Lemma wf_add now n a s : wf s -> wf (fst (add_service keq now n a s)).
Proof.
  intros [W1 W2]. split.
  - apply (nodup_set text_eqb text_equiv), W1.
  - intros N. rewrite table_add. destruct (text_eqb n N); [|apply W2]. apply (nodup_set aeq aeq_equiv), W2.
Qed.

Lemma keys_ok_add (P : addr -> Prop) now n a s : P a -> keys_ok P s -> keys_ok P (fst (add_service keq now n a s)).
Proof.
  intros Pa K. pose proof (keys_ok_table P n s K) as KT. apply (Forall_set aeq _ a now) in KT; auto.
  apply Forall_set; auto.
Qed.

Lemma notes_add now n a s : snd (add_service keq now n a s) = if negb (member n a s) then [Added n a] else [].
Proof.
  unfold add_service, Registry.member, Registry.lookup, d_mem; cbn [snd].
  destruct (d_find text_eqb n s) as [tb|]; [now destruct (d_find aeq a tb)|reflexivity].
Qed.

Lemma add_assigns now n a s :
  assigns (fun N b => text_eqb n N && aeq a b) (Some now) s (add_service keq now n a s).
Proof.
  apply key_assigns; [intros; apply lookup_add|intros _; apply notes_add].
Qed.

Lemma table_remove n a s N : d_nodup text_eqb s ->
  table_of N (fst (remove_service keq F n a s)) = if text_eqb n N then d_pop aeq a (table_of n s) else table_of N s.
Proof.
  intros W. unfold remove_service, table_of. destruct (d_find text_eqb n s) as [tb|] eqn:En; cbn [fst].
  - destruct (d_pop aeq a tb).
    + rewrite (find_pop text_eqb text_equiv) by exact W. now destruct (text_eqb n N).
    + rewrite (find_set text_eqb text_equiv). now destruct (text_eqb n N).
  - destruct (text_eqb n N) eqn:EN; [|reflexivity]. apply text_eqb_eq in EN as <-. now rewrite En.
Qed.

Lemma lookup_remove n a s N b : wf s ->
  lookup N b (fst (remove_service keq F n a s)) = if text_eqb n N && aeq a b then None else lookup N b s.
Proof.
  intros [W1 W2]. rewrite !lookup_table, table_remove by exact W1. destruct (text_eqb n N) eqn:EN; [|reflexivity].
  apply text_eqb_eq in EN as <-. apply (find_pop aeq aeq_equiv), W2.
Qed.

Lemma wf_remove n a s : wf s -> wf (fst (remove_service keq F n a s)).
Proof.
  intros [W1 W2]. split.
  - unfold remove_service. destruct (d_find text_eqb n s) as [tb|]; cbn [fst]; [|exact W1].
    destruct (d_pop aeq a tb); [apply (nodup_pop text_eqb text_equiv)|apply (nodup_set text_eqb text_equiv)]; exact W1.
  - intros N. rewrite table_remove by exact W1. destruct (text_eqb n N); [|apply W2]. apply (nodup_pop aeq aeq_equiv), W2.
Qed.

Lemma keys_ok_remove P n a s : keys_ok P s -> keys_ok P (fst (remove_service keq F n a s)).
Proof.
  intros K. pose proof (keys_ok_table P n s K) as KT. apply (Forall_pop aeq _ a) in KT.
  unfold remove_service, table_of in *. destruct (d_find text_eqb n s) as [tb|]; cbn [fst]; [|exact K].
  destruct (d_pop aeq a tb); [now apply Forall_pop|]. apply Forall_set; auto.
Qed.

Lemma notes_remove n a s : notify_only_present F = true ->
  snd (remove_service keq F n a s) = if member n a s then [Removed n a] else [].
Proof.
  intros HF. unfold remove_service, Registry.member, Registry.lookup, d_mem.
  destruct (d_find text_eqb n s) as [tb|]; cbn [snd]; auto. rewrite HF. cbn.
  destruct (d_find aeq a tb); auto.
Qed.

Lemma remove_assigns n a s : wf s ->
  assigns (fun N b => text_eqb n N && aeq a b) None s (remove_service keq F n a s).
Proof.
  intros W. apply key_assigns; [intros; now apply lookup_remove|exact (notes_remove n a s)].
Qed.

Definition named (N : text) (ns : list text) : bool := existsb (fun n => text_eqb n N) ns.

Definition loops {X} (op : X -> services -> services * list note) (loop : list X -> services -> services * list note) :=
  (forall s, loop [] s = (s, []))
  /\ (forall x l s, loop (x :: l) s = let '(s1, m1) := op x s in let '(s2, m2) := loop l s1 in (s2, m1 ++ m2)).

Lemma register_loops now a : loops (fun n => add_service keq now n a) (cmd_register keq now a).
Proof. split; reflexivity. Qed.
Lemma remove_all_loops a : loops (fun n => remove_service keq F n a) (remove_all keq F a).
Proof. split; reflexivity. Qed.

Lemma loop_ind {X} (op : X -> services -> services * list note) loop
    (R : list X -> services -> services * list note -> Prop) :
  loops op loop ->
  (forall s, R [] s (s, [])) ->
  (forall x l s r, R l (fst (op x s)) r -> R (x :: l) s (fst r, snd (op x s) ++ snd r)) ->
  forall l s, R l s (loop l s).
Proof.
  intros [E0 E1] H0 H1. induction l as [|x l IH]; intros s; [rewrite E0; apply H0|]. rewrite E1.
  specialize (H1 x l s _ (IH (fst (op x s)))).
  destruct (op x s) as [s1 m1]. cbn [fst snd] in *. now destruct (loop l s1).
Qed.

(* cmd_register and cmd_unregister: one operation on the same address under every name of a list *)
Lemma names_assigns v a (op : text -> services -> services * list note) loop : loops op loop ->
  (forall n s, wf s -> assigns (fun N b => text_eqb n N && aeq a b) v s (op n s) /\ wf (fst (op n s))) ->
  forall ns s, wf s -> assigns (fun N b => named N ns && aeq a b) v s (loop ns s).
Proof.
  intros L H. apply (loop_ind _ _ (fun ns s r => wf s -> assigns (fun N b => named N ns && aeq a b) v s r) L).
  - intros s _. now apply assigns_nil.
  - intros n ns s r IH W. destruct (H n s W) as [A W1]. eapply assigns_seq; [|exact A|apply IH, W1].
    intros N b. apply andb_orb_distrib_l.
Qed.

Lemma find_named N (s : services) tb : d_find text_eqb N s = Some tb -> named N (map fst s) = true.
Proof.
  induction s as [|[n t] r IH]; cbn; [discriminate|].
  destruct (text_eqb n N); cbn; auto.
Qed.

(* every name of the table is visited, so the names drop out *)
Lemma unregister_assigns a s : wf s -> assigns (fun _ b => aeq a b) None s (cmd_unregister keq F a s).
Proof.
  intros W. destruct (names_assigns None a _ _ (remove_all_loops a)
                        (fun n s W => conj (remove_assigns n a s W) (wf_remove n a s W)) (map fst s) s W) as (L & C).
  split; [|exact C]. intros N b. rewrite L.
  destruct (aeq a b); [|now rewrite andb_false_r].
  destruct (named N (map fst s)) eqn:H; [reflexivity|]. unfold Registry.lookup.
  destruct (d_find text_eqb N s) eqn:H2; [|reflexivity]. now rewrite (find_named _ _ _ H2) in H.
Qed.

Definition le_t (x y : addr * Z) : Prop := snd x <= snd y.

Lemma insert_perm x l : Permutation (insert_by_time x l) (x :: l).
Proof.
  induction l as [|y r IH]; cbn; auto. destruct (snd x <=? snd y); auto.
  eapply perm_trans; [apply perm_skip, IH|apply perm_swap].
Qed.
Lemma sort_perm l : Permutation (sort_by_time l) l.
Proof.
  induction l as [|x r IH]; cbn; auto.
  eapply perm_trans; [apply insert_perm|now apply perm_skip].
Qed.
Lemma existsb_perm {A} (f : A -> bool) l l' : Permutation l l' -> existsb f l = existsb f l'.
Proof. induction 1; cbn; try congruence. now destruct (f x), (f y). Qed.
Lemma in_sort x l : In x (sort_by_time l) <-> In x l.
Proof. split; apply Permutation_in; [|apply Permutation_sym]; apply sort_perm. Qed.

Lemma insert_sorted x l : StronglySorted le_t l -> StronglySorted le_t (insert_by_time x l).
Proof.
  induction l as [|y r IH]; cbn; intros H.
  - constructor; constructor.
  - inversion H as [|? ? Hs Hf]; subst. destruct (Z.leb_spec (snd x) (snd y)) as [L|L].
    + constructor; auto. constructor; auto.
      eapply Forall_impl; [|exact Hf]. unfold le_t. intros; lia.
    + constructor; auto.
      eapply Permutation_Forall; [apply Permutation_sym, insert_perm|].
      constructor; auto. unfold le_t; lia.
Qed.
Lemma sort_sorted l : StronglySorted le_t (sort_by_time l).
Proof. induction l; cbn; [constructor|now apply insert_sorted]. Qed.

Lemma ss_filter {A} (R : A -> A -> Prop) f l : StronglySorted R l -> StronglySorted R (filter f l).
Proof.
  induction 1 as [|a l Hs IH Hf]; cbn; [constructor|]. destruct (f a); auto. constructor; auto.
  rewrite Forall_forall in *. intros y Hy. apply filter_In in Hy. apply Hf. tauto.
Qed.
Lemma ss_map_snd l : StronglySorted le_t l -> StronglySorted Z.le (map snd l).
Proof.
  induction 1 as [|a l Hs IH Hf]; cbn; constructor; auto.
  rewrite Forall_forall in *. intros y Hy. apply in_map_iff in Hy as (x & <- & Hx). now apply Hf.
Qed.
Lemma perm_filter {A} (f : A -> bool) l l' : Permutation l l' -> Permutation (filter f l) (filter f l').
Proof.
  induction 1; cbn; auto.
  - destruct (f x); auto.
  - destruct (f x), (f y); auto. apply perm_swap.
  - eapply perm_trans; eauto.
Qed.
Lemma filter_filter_le {A} (p q : A -> bool) l :
  (List.length (filter p (filter q l)) <= List.length (filter p l))%nat.
Proof.
  induction l as [|x r IH]; cbn; auto. destruct (q x), (p x) eqn:H; cbn; rewrite ?H; cbn; lia.
Qed.
Lemma filter_map_length {A B} (g : A -> B) (p : B -> bool) l :
  List.length (filter p (map g l)) = List.length (filter (fun x => p (g x)) l).
Proof. induction l as [|x r IH]; cbn; auto. destruct (p (g x)); cbn; auto. Qed.

Definition fresh (oldest : Z) (x : addr * Z) : bool := negb (snd x <? oldest).
Definition has_stale (oldest : Z) (b : addr) (l : list (addr * Z)) : bool :=
  existsb (fun x => (snd x <? oldest) && aeq (fst x) b) l.

Lemma query_prune now n s :
  cmd_query keq F pruning now n s = prune keq F (now - pruning) n (sort_by_time (table_of n s)) s.
Proof. unfold cmd_query, table_of. now destruct (d_find text_eqb n s). Qed.

Lemma prune_ind (R : list (addr * Z) -> services -> services * list note * list addr -> Prop) oldest n :
  (forall s, R [] s (s, [], [])) ->
  (forall a t l s s2 m2 srv, (t <? oldest) = true -> R l (fst (remove_service keq F n a s)) (s2, m2, srv) ->
     R ((a, t) :: l) s (s2, snd (remove_service keq F n a s) ++ m2, srv)) ->
  (forall a t l s s2 m2 srv, (t <? oldest) = false -> R l s (s2, m2, srv) -> R ((a, t) :: l) s (s2, m2, a :: srv)) ->
  forall l s, R l s (prune keq F oldest n l s).
Proof.
  intros H0 H1 H2. induction l as [|[a t] l IH]; intros s; [apply H0|]. cbn [prune]. destruct (t <? oldest) eqn:E.
  - specialize (H1 a t l s). destruct (remove_service keq F n a s) as [s1 m1]. cbn [fst snd] in *.
    specialize (IH s1). destruct (prune keq F oldest n l s1) as [[s2 m2] srv]. now apply H1.
  - specialize (IH s). destruct (prune keq F oldest n l s) as [[s2 m2] srv]. now apply H2.
Qed.

Lemma prune_servers oldest n l s : snd (prune keq F oldest n l s) = map fst (filter (fresh oldest) l).
Proof.
  revert l s. apply (prune_ind (fun l _ r => snd r = map fst (filter (fresh oldest) l))).
  - reflexivity.
  - intros a t l s s2 m2 srv E IH. cbn [filter snd] in *. unfold fresh at 1. cbn [snd]. now rewrite E.
  - intros a t l s s2 m2 srv E IH. cbn [filter snd] in *. unfold fresh at 1. cbn [snd]. rewrite E. cbn. now rewrite IH.
Qed.

Lemma prune_assigns oldest n l s : wf s ->
  assigns (fun N b => text_eqb n N && has_stale oldest b l) None s (fst (prune keq F oldest n l s)).
Proof.
  revert l s.
  apply (prune_ind (fun l s r => wf s -> assigns (fun N b => text_eqb n N && has_stale oldest b l) None s (fst r))).
  - intros s _. apply assigns_nil. intros N b. apply andb_false_r.
  - intros a t l s s2 m2 srv E IH W.
    eapply (assigns_seq _ _ _ _ _ _ (s2, m2)); [|now apply remove_assigns|apply IH, wf_remove, W].
    intros N b. cbn [has_stale existsb fst snd]. rewrite E. apply andb_orb_distrib_r.
  - intros a t l s s2 m2 srv E IH W. destruct (IH W) as [L C]. split; [|exact C].
    intros N b. cbn [has_stale existsb fst snd]. rewrite E. apply L.
Qed.

(* the entries a query for [n] at [now] prunes *)
Definition expired (now : Z) (n : text) (s : services) (N : text) (b : addr) : bool :=
  text_eqb n N && match lookup N b s with Some t => t <? now - pruning | None => false end.

Lemma query_assigns now n s : wf s -> assigns (expired now n s) None s (fst (cmd_query keq F pruning now n s)).
Proof.
  intros W. rewrite query_prune.
  destruct (prune_assigns (now - pruning) n (sort_by_time (table_of n s)) s W) as (L & C).
  split; [|exact C]. intros N b. rewrite L. unfold expired.
  destruct (text_eqb n N) eqn:EN; [|reflexivity]. apply text_eqb_eq in EN as <-. cbn [andb].
  (* the stale entries of the sorted table are those the lookup finds with an old time *)
  unfold has_stale. rewrite (existsb_perm _ _ _ (sort_perm _)), lookup_table.
  now rewrite (exists_find aeq aeq_equiv (fun t => t <? now - pruning)) by apply W.
Qed.

Lemma query_answer now n s :
  snd (cmd_query keq F pruning now n s) = map fst (filter (fresh (now - pruning)) (sort_by_time (table_of n s))).
Proof. rewrite query_prune. apply prune_servers. Qed.

Lemma query_keys P now n s : keys_ok P s -> Forall P (snd (cmd_query keq F pruning now n s)).
Proof.
  intros K. apply (keys_ok_table P n) in K. rewrite query_answer. apply Forall_forall.
  intros a Ha. apply in_map_iff in Ha as (x & <- & Hx). apply filter_In in Hx as [Hx _].
  rewrite Forall_forall in K. now apply K, in_sort.
Qed.

Lemma query_servers now n s : wf s ->
  let srv := snd (cmd_query keq F pruning now n s) in
  (forall b, (exists a', In a' srv /\ aeq a' b = true) <-> exists t, lookup n b s = Some t /\ now - pruning <= t)
  /\ (forall b, (List.length (filter (fun a => aeq a b) srv) <= 1)%nat)
  /\ exists l, srv = map fst l /\ StronglySorted Z.le (map snd l)
               /\ Forall (fun x => lookup n (fst x) s = Some (snd x)) l.
Proof.
  intros [_ W]. pose proof (W n) as ND. cbn zeta. rewrite query_answer.
  set (oldest := now - pruning). set (tb := table_of n s) in *.
  assert (IN : forall x, In x (filter (fresh oldest) (sort_by_time tb)) <-> In x tb /\ oldest <= snd x).
  { intros x. unfold fresh. now rewrite filter_In, in_sort, negb_true_iff, Z.ltb_ge. }
  assert (FI : forall a t, In (a, t) tb -> lookup n a s = Some t).
  { intros a t Hx. rewrite lookup_table. now apply (find_in aeq aeq_equiv). }
  repeat split.
  - intros (a' & Hin & Ha). apply in_map_iff in Hin as ([a t] & <- & Hx). apply IN in Hx as [Hx Ht].
    exists t. split; auto. rewrite <- (lookup_congr n a b s Ha). now apply FI.
  - intros (t & Hf & Ht). rewrite lookup_table in Hf. apply find_some in Hf as (a0 & Hin & Ha). exists a0. split; auto.
    apply in_map_iff. exists (a0, t). split; auto. apply IN. auto.
  - intros b. rewrite filter_map_length.
    eapply Nat.le_trans; [apply filter_filter_le|].
    rewrite (Permutation_length (perm_filter _ _ _ (sort_perm tb))).
    apply (nodup_count aeq aeq_equiv b tb ND).
  - exists (filter (fresh oldest) (sort_by_time tb)). repeat split.
    + apply ss_map_snd, ss_filter, sort_sorted.
    + apply Forall_forall. intros [a t] Hx. apply IN in Hx as [Hx _]. now apply FI.
Qed.

Definition notes_of (o : outcome) : list note := match o with Next _ m _ => m | Dead _ => [] end.

Lemma exec_parts now h r s :
  (next_state (exec now h r s) s, notes_of (exec now h r s)) =
    match r with
    | RQuery n => fst (cmd_query keq F pruning now n s)
    | RRegister ns p => cmd_register keq now (h, p) ns s
    | RUnregister p => cmd_unregister keq F (h, p) s
    | _ => (s, [])
    end.
Proof.
  destruct r as [|e0|qn| |ns p|p]; cbn [Registry.exec next_state notes_of]; try reflexivity.
  - now destruct (cmd_query keq F pruning now qn s) as [[s' m] srv].
  - now destruct (cmd_register keq now (h, p) ns s) as [s' m].
  - now destruct (cmd_unregister keq F (h, p) s) as [s' m].
Qed.

Lemma exec_query now h n s :
  exec now h (RQuery n) s =
    Next (fst (fst (cmd_query keq F pruning now n s))) (snd (fst (cmd_query keq F pruning now n s)))
         (Some (PTuple (map addr_val (snd (cmd_query keq F pruning now n s))))).
Proof. cbn [Registry.exec]. now destruct (cmd_query keq F pruning now n s) as [[s' m] srv]. Qed.

Lemma exec_dead now h r s e : exec now h r s = Dead e -> r = RDie e.
Proof.
  destruct r as [|e0|qn| |ns p|p]; cbn [Registry.exec]; try discriminate.
  - now intros [= ->].
  - destruct (cmd_query keq F pruning now qn s) as [[s' m] srv]. discriminate.
  - destruct (cmd_register keq now (h, p) ns s) as [s' m]. discriminate.
  - destruct (cmd_unregister keq F (h, p) s) as [s' m]. discriminate.
Qed.

(* the keys a request gives a value to, and the value *)
Definition touched (now : Z) (h : text) (r : req) (s : services) (N : text) (b : addr) : bool :=
  match r with
  | RRegister ns p => named N ns && aeq (h, p) b
  | RUnregister p => aeq (h, p) b
  | RQuery n => expired now n s N b
  | _ => false
  end.
Definition value (now : Z) (r : req) : option Z := match r with RRegister _ _ => Some now | _ => None end.

Theorem exec_assigns now h r s : wf s ->
  assigns (touched now h r s) (value now r) s (next_state (exec now h r s) s, notes_of (exec now h r s)).
Proof.
  intros W. rewrite exec_parts. destruct r as [|e0|qn| |ns p|p]; try (now apply assigns_nil).
  - now apply query_assigns.
  - apply (names_assigns _ _ _ _ (register_loops now (h, p))); [|exact W].
    intros n s0 W0. split; [apply add_assigns|now apply wf_add].
  - now apply unregister_assigns.
Qed.

(* [r = RRegister ns p] in the first premise: what is known of the request's own address ([regs_ok]) may be used *)
Theorem exec_inv (Q : services -> Prop) now h r s :
  (forall n ns p s, r = RRegister ns p -> Q s -> Q (fst (add_service keq now n (h, p) s))) ->
  (forall n a s, Q s -> Q (fst (remove_service keq F n a s))) ->
  Q s -> Q (next_state (exec now h r s) s).
Proof.
  (* the table after [r] as the first component of the pair that [exec_parts] speaks of *)
  intros HA HR. change (Q s -> Q (fst (next_state (exec now h r s) s, notes_of (exec now h r s)))).
  rewrite exec_parts. destruct r as [|e0|qn| |ns p|p]; auto.
  - rewrite query_prune. apply (prune_ind (fun _ s r => Q s -> Q (fst (fst r)))); auto.
  - apply (loop_ind _ _ (fun _ s r => Q s -> Q (fst r)) (register_loops now (h, p))); eauto.
  - apply (loop_ind _ _ (fun _ s r => Q s -> Q (fst r)) (remove_all_loops (h, p))); auto.
Qed.

(* [live rh N b]: the time of the last register request (newest first in [rh]) that names service N
   and an address == b, unless an unregister request for that address came after it.  Queries,
   malformed requests and pruning do not appear in it. *)
Fixpoint live (rh : list event) (N : text) (b : addr) : option Z :=
  match rh with
  | [] => None
  | (now, h, RRegister ns p) :: older => if named N ns && aeq (h, p) b then Some now else live older N b
  | (now, h, RUnregister p) :: older => if aeq (h, p) b then None else live older N b
  | _ :: older => live older N b
  end.
Definition clock_le (rh : list event) (now : Z) : Prop :=
  match rh with [] => True | (t, _, _) :: _ => t <= now end.
Fixpoint mono (rh : list event) : Prop :=
  match rh with [] => True | (now, _, _) :: older => clock_le older now /\ mono older end.
Definition stale_at (rh : list event) (t : Z) : Prop :=
  match rh with [] => False | (now, _, _) :: _ => t < now - pruning end.
Definition regs_ok (P : addr -> Prop) (rh : list event) : Prop :=
  Forall (fun ev : event => match ev with (_, h, RRegister _ p) => P (h, p) | _ => True end) rh.

Lemma wf_state_after rh : wf (state_after rh).
Proof.
  induction rh as [|[[now h] r] older IH]; cbn [Registry.state_after]; [split; intros; exact I|].
  apply exec_inv; auto using wf_add, wf_remove.
Qed.

Lemma keys_ok_state_after P rh : regs_ok P rh -> keys_ok P (state_after rh).
Proof.
  induction 1 as [|[[now h] r] older Hev _ IH]; cbn [Registry.state_after]; [constructor|].
  apply exec_inv; auto using keys_ok_remove. intros n ns p s ->. now apply keys_ok_add.
Qed.

(* the table agrees with [live], except that an entry may be gone that was already stale *)
Definition Inv (rh : list event) (s : services) : Prop := forall N b,
  lookup N b s = live rh N b \/ (lookup N b s = None /\ exists t, live rh N b = Some t /\ stale_at rh t).

Lemma inv_step now h r older s : wf s ->
  Inv older s -> clock_le older now -> Inv ((now, h, r) :: older) (next_state (exec now h r s) s).
Proof.
  intros W I C N b. destruct (exec_assigns now h r s W) as (L & _). cbn [fst] in L. rewrite L.
  assert (K : lookup N b s = live older N b
              \/ (lookup N b s = None /\ exists t, live older N b = Some t /\ stale_at ((now, h, r) :: older) t)).
  { destruct (I N b) as [H|(H & t & Lv & S)]; [now left|right].
    split; [exact H|]. exists t. split; [exact Lv|]. clear - C S.
    destruct older as [|[[t0 h0] r0] o]; cbn in *; [contradiction|lia]. }
  destruct r as [|e0|qn| |ns p|p]; cbn [touched value live]; try exact K.
  - unfold expired. destruct (lookup N b s) as [t|]; [|rewrite andb_false_r; exact K].
    destruct (text_eqb qn N && (t <? now - pruning)) eqn:H; [|exact K].
    right. split; [reflexivity|]. exists t. destruct K as [K|[K _]]; [|discriminate].
    split; [now symmetry|]. apply andb_prop in H as [_ H]. now apply Z.ltb_lt in H.
  - destruct (named N ns && aeq (h, p) b); [now left|exact K].
  - destruct (aeq (h, p) b); [now left|exact K].
Qed.

Lemma inv_state_after rh : mono rh -> Inv rh (state_after rh).
Proof.
  induction rh as [|[[now h] r] older IH]; cbn [mono Registry.state_after]; [now left|].
  intros [C M]. apply inv_step; auto using wf_state_after.
Qed.

Lemma live_fresh_lookup rh s now N b t : Inv rh s -> clock_le rh now ->
  live rh N b = Some t -> now - pruning <= t -> lookup N b s = Some t.
Proof.
  intros I C Lv Fr. destruct (I N b) as [H|(_ & t' & Lv' & S)]; [congruence|].
  exfalso. rewrite Lv in Lv'. injection Lv' as <-. clear - S C Fr.
  destruct rh as [|[[t0 h0] r0] o]; cbn in S, C; [auto|lia].
Qed.
Lemma lookup_live rh s N b t : Inv rh s -> lookup N b s = Some t -> live rh N b = Some t.
Proof. intros I H. destruct (I N b) as [<-|[H' _]]; congruence. Qed.

Theorem notes_exact now h r s N b : notify_only_present F = true -> wf s ->
  match exec now h r s with
  | Next s' m _ =>
      count true N b m = ind (negb (member N b s) && member N b s')
      /\ count false N b m = ind (member N b s && negb (member N b s'))
  | Dead _ => True
  end.
Proof.
  intros HF W. destruct (exec_assigns now h r s W) as (_ & C). specialize (C HF N b).
  now destruct (exec now h r s).
Qed.

Definition names_it (h : text) (r : req) (N : text) (b : addr) : Prop :=
  match r with
  | RRegister ns p => named N ns = true /\ aeq (h, p) b = true
  | RUnregister p => aeq (h, p) b = true
  | _ => False
  end.

Theorem no_collateral now h r s N b : wf s ->
  lookup N b (next_state (exec now h r s) s) = lookup N b s
  \/ names_it h r N b
  \/ (exists t, r = RQuery N /\ lookup N b s = Some t /\ t < now - pruning).
Proof.
  intros W. destruct (exec_assigns now h r s W) as (L & _). cbn [fst] in L. rewrite L.
  destruct (touched now h r s N b) eqn:H; [right|now left].
  destruct r; cbn [touched] in H; unfold expired in H; try discriminate.
  - right. apply andb_prop in H as [H1 H2]. apply text_eqb_eq in H1 as ->.
    destruct (lookup N b s) as [t|]; [|discriminate]. exists t. apply Z.ltb_lt in H2. auto.
  - left. now apply andb_prop in H.
  - left. exact H.
Qed.

Notation classify := (Registry.classify upper lower fso keq enc F).
Notation work_val := (Registry.work_val upper lower fso keq enc F pruning).
Notation deliver := (Registry.deliver enc F).

(* what reaches [exec]: the loop can only die where the command lookup is not guarded, and a register
   request that reaches the table was accepted *)
Lemma classify_args_spec h k al :
  match classify_args upper fso keq enc F h k al with
  | RDie _ => False
  | RRegister _ p => accepted keq enc F h p = true
  | _ => True
  end.
Proof.
  unfold classify_args.
  destruct k; destruct al as [|x [|y [|z al]]]; try exact I; try (now destruct x).
  destruct (py_iter fso x) as [xs|]; [|exact I]. destruct (texts_of xs); [|exact I].
  now destruct (accepted keq enc F h y) eqn:A.
Qed.
Lemma classify_spec h v :
  match classify h v with
  | RDie _ => lookup_guarded F = false
  | RRegister _ p => accepted keq enc F h p = true
  | _ => True
  end.
Proof.
  unfold Registry.classify.
  destruct (py_iter fso v) as [[|m [|c [|a [|x l]]]]|]; try exact I.
  destruct (negb (is_text RPYC m)); [exact I|].
  destruct c as [| | |?|?|?|?|?|ct|?|?|? ? ?|?]; try exact I; try (now destruct (lookup_guarded F)).
  destruct (find_cmd (lower ct)) as [k|]; [|exact I]. destruct (py_iter fso a) as [al|]; [|exact I].
  pose proof (classify_args_spec h k al) as H. now destruct (classify_args upper fso keq enc F h k al).
Qed.

Lemma deliver_alive o : reply_guarded F = true -> (forall e, o <> Dead e) ->
  exists s' m rep, deliver o = Next s' m rep.
Proof.
  intros G H. destruct o as [s' m [v|]|e]; cbn [Registry.deliver]; eauto.
  - destruct (enc v); eauto. rewrite G. eauto.
  - now destruct (H e).
Qed.

Theorem loop_survives now h s v : lookup_guarded F = true -> reply_guarded F = true ->
  exists s' m rep, work_val now h s v = Next s' m rep.
Proof.
  intros G RG. unfold Registry.work_val. apply deliver_alive; auto.
  intros e H. apply exec_dead in H. pose proof (classify_spec h v) as S. rewrite H in S. congruence.
Qed.

Theorem loop_dies_unguarded now h s : lookup_guarded F = false ->
  work_val now h s (PTuple [PStr RPYC; PInt 5; PTuple []]) = Dead AttributeError.
Proof.
  intros G. unfold Registry.work_val, Registry.classify. cbn [py_iter].
  change (is_text RPYC (PStr RPYC)) with true. cbn [negb]. now rewrite G.
Qed.

(* the shapes of malformed requests the property lists: each is dropped, table and log untouched *)
Lemma malformed_dropped now h s v : classify h v = RNone -> work_val now h s v = Next s [] None.
Proof. intros E. unfold Registry.work_val. now rewrite E. Qed.

Lemma classify_not_iterable h v : py_iter fso v = None -> classify h v = RNone.
Proof. intros E. unfold Registry.classify. now rewrite E. Qed.
Lemma classify_wrong_length h v l : py_iter fso v = Some l -> List.length l <> 3%nat -> classify h v = RNone.
Proof.
  intros E H. unfold Registry.classify. rewrite E.
  destruct l as [|m [|c [|a [|x l]]]]; auto. now cbn in H.
Qed.
Lemma classify_wrong_magic h m c a : is_text RPYC m = false -> classify h (PTuple [m; c; a]) = RNone.
Proof. intros E. unfold Registry.classify. cbn [py_iter]. now rewrite E. Qed.
Lemma classify_nontext_command h c a : lookup_guarded F = true -> (forall t, c <> PStr t) ->
  classify h (PTuple [PStr RPYC; c; a]) = RNone.
Proof.
  intros G H. unfold Registry.classify. cbn [py_iter].
  destruct c as [| | |?|?|?|?|?|ct|?|?|? ? ?|?]; try reflexivity; try (now rewrite G). now destruct (H ct).
Qed.

Lemma classify_triple h c a :
  classify h (PTuple [PStr RPYC; PStr c; a]) =
    match find_cmd (lower c) with
    | Some k => match py_iter fso a with Some al => classify_args upper fso keq enc F h k al | None => RNone end
    | None => RNone
    end.
Proof. reflexivity. Qed.

Lemma classify_wrong_arg_count h c k a al : find_cmd (lower c) = Some k -> py_iter fso a = Some al ->
  List.length al <> (match k with CRegister => 2 | _ => 1 end)%nat ->
  classify h (PTuple [PStr RPYC; PStr c; a]) = RNone.
Proof.
  intros E1 E2 H. rewrite classify_triple, E1, E2. unfold classify_args.
  destruct k; destruct al as [|x [|y [|z al]]]; auto; try (now cbn in H); now destruct x.
Qed.

Lemma texts_of_strs ns : texts_of (map PStr ns) = Some ns.
Proof. induction ns as [|x r IH]; cbn; [auto|now rewrite IH]. Qed.
(* case-insensitivity: names meet the table only through [upper] *)
Lemma classify_register h c ns p : find_cmd (lower c) = Some CRegister ->
  classify h (PTuple [PStr RPYC; PStr c; PTuple [PTuple (map PStr ns); p]])
  = if accepted keq enc F h p then RRegister (map upper ns) p else RNone.
Proof. intros E. rewrite classify_triple, E. cbn [classify_args py_iter]. now rewrite texts_of_strs. Qed.

Definition enc_tuple_ok : Prop := forall l, enc (PTuple l) = forallb (fun x => enc (PTuple [x])) l.
Definition answerable (a : addr) : Prop := enc (PTuple [addr_val a]) = true.

(* every key of the table is the address of an accepted register request; on a tree that validates at
   registration every query answer can be encoded, i.e. is delivered *)
Theorem query_delivered rh now h N : enc_tuple_ok -> regs_ok answerable rh ->
  deliver (exec now h (RQuery N) (state_after rh)) = exec now h (RQuery N) (state_after rh).
Proof.
  intros ET RO. rewrite exec_query. cbn [Registry.deliver].
  pose proof (query_keys answerable now N _ (keys_ok_state_after _ rh RO)) as K. rewrite Forall_forall in K.
  assert (E : enc (PTuple (map addr_val (snd (cmd_query keq F pruning now N (state_after rh))))) = true).
  { rewrite ET. apply forallb_forall. intros x Hx. apply in_map_iff in Hx as (a & <- & Ha). now apply K. }
  now rewrite E.
Qed.

Lemma accepted_spec h p : accepted keq enc F h p = true ->
  (register_validates F = true -> answerable (h, p)) /\ (register_self_equal F = true -> keq p p = true).
Proof.
  unfold accepted. intros H. apply andb_prop in H as [H1 H2].
  split; intros V; rewrite V in *; [exact H1|exact H2].
Qed.

(* the whole log: its balance is table membership, which lags behind the
   freshness-based membership of the property only by expiries not yet noticed *)
Fixpoint log_after (rh : list event) : list note :=
  match rh with
  | [] => []
  | (now, h, r) :: older => log_after older ++ notes_of (exec now h r (state_after older))
  end.

Theorem log_balance rh N b : notify_only_present F = true ->
  count true N b (log_after rh) = (count false N b (log_after rh) + ind (member N b (state_after rh)))%nat.
Proof.
  intros HF. induction rh as [|[[now h] r] older IH]; cbn [log_after Registry.state_after]; auto.
  rewrite !count_app, IH.
  destruct (exec_assigns now h r _ (wf_state_after older)) as (_ & C).
  specialize (C HF N b). cbn [fst snd] in C. destruct C as [-> ->].
  destruct (member N b (state_after older)), (member N b (next_state _ _)); cbn; lia.
Qed.

Theorem member_vs_live rh N b : mono rh ->
  (forall t, live rh N b = Some t -> ~ stale_at rh t -> member N b (state_after rh) = true)
  /\ (live rh N b = None -> member N b (state_after rh) = false).
Proof.
  intros M. rewrite member_lookup.
  destruct (inv_state_after rh M N b) as [->|(-> & t & -> & S)]; split; try discriminate.
  - now intros t ->.
  - now intros ->.
  - now intros t' [= <-] [].
Qed.

Theorem member_after_query rh now h N b : mono rh -> clock_le rh now ->
  member N b (state_after ((now, h, RQuery N) :: rh)) = true
  <-> exists t, live rh N b = Some t /\ now - pruning <= t.
Proof.
  intros M C. pose proof (inv_state_after rh M) as IV. cbn [Registry.state_after].
  destruct (exec_assigns now h (RQuery N) _ (wf_state_after rh)) as (L & _).
  cbn [fst touched value] in L. unfold expired in L. rewrite member_true. split.
  - intros (t0 & H). rewrite L, text_eqb_refl in H. cbn [andb] in H.
    destruct (lookup N b (state_after rh)) as [t|] eqn:E; [|discriminate].
    destruct (Z.ltb_spec t (now - pruning)); [discriminate|]. exists t.
    split; [now apply (lookup_live rh _ N b t IV)|assumption].
  - intros (t & Lv & Fr). exists t. rewrite L, text_eqb_refl, (live_fresh_lookup rh _ now N b t IV C Lv Fr).
    cbn [andb]. apply Z.ltb_ge in Fr. now rewrite Fr.
Qed.

Notation tcp_run := (Registry.tcp_run upper lower fso keq enc F pruning).

Lemma results_of_starved cs :
  results_of_sends cs (map (fun _ => TStarved) cs) = map (fun _ => TStarved) (sends_of cs).
Proof.
  induction cs as [|[[now h] [|v]] r IH]; cbn; auto. now rewrite IH.
Qed.

Lemma tcp_run_sweep_idem fdmax p s cs :
  tcp_run fdmax (if tcp_closes_unanswered F then O else p) s cs = tcp_run fdmax p s cs.
Proof. destruct cs as [|[[now h] c] r]; cbn [Registry.tcp_run]; auto. now destruct (tcp_closes_unanswered F). Qed.

Lemma tcp_run_starved_head fdmax p s cs :
  Nat.leb fdmax (if tcp_closes_unanswered F then O else p) = true ->
  tcp_run fdmax p s cs = map (fun _ => TStarved) cs.
Proof. intros H. destruct cs as [|[[now h] c] r]; cbn [Registry.tcp_run]; auto. now rewrite H. Qed.

Theorem tcp_silent_invisible fdmax cs : tcp_timeout F = true -> forall p s,
  results_of_sends cs (tcp_run fdmax p s cs) = tcp_run fdmax p s (sends_of cs).
Proof.
  intros HT. induction cs as [|[[now h] c] r IH]; intros p s; [reflexivity|].
  destruct (Nat.leb fdmax (if tcp_closes_unanswered F then O else p)) eqn:L.
  - rewrite !tcp_run_starved_head by auto. apply results_of_starved.
  - destruct c as [|v]; cbn [Registry.tcp_run sends_of]; rewrite L.
    + rewrite HT. cbn [results_of_sends]. rewrite IH. apply tcp_run_sweep_idem.
    + destruct (Registry.work_val upper lower fso keq enc F pruning now h s v) as [s' m rep|e]; cbn [results_of_sends].
      * now rewrite IH.
      * now rewrite results_of_starved.
Qed.

Theorem tcp_nobody_starves fdmax cs : tcp_timeout F = true -> lookup_guarded F = true -> reply_guarded F = true ->
  tcp_closes_unanswered F = true -> (1 <= fdmax)%nat -> forall p s, ~ In TStarved (tcp_run fdmax p s cs).
Proof.
  intros HT G RG CL FD. induction cs as [|[[now h] c] r IH]; intros p s; cbn [Registry.tcp_run]; auto.
  rewrite CL. destruct (Nat.leb_spec fdmax 0); [lia|].
  destruct c as [|v].
  - rewrite HT. intros [H1|H1]; [discriminate|now apply IH in H1].
  - destruct (loop_survives now h s v G RG) as (s' & m & rep & ->).
    intros [H1|H1]; [discriminate|now apply IH in H1].
Qed.

(* requests that get no reply leave their socket open: after [fdmax] of them nobody is accepted *)
Theorem tcp_leak_starves fdmax now h bad c : tcp_closes_unanswered F = false ->
  (forall s, work_val now h s bad = Next s [] None) ->
  forall k p s, (p + k = fdmax)%nat ->
  tcp_run fdmax p s (repeat (now, h, Sends bad) k ++ [c]) = repeat (TReached None) k ++ [TStarved].
Proof.
  intros CL B. induction k as [|k IH]; intros p s E; cbn [repeat app].
  - destruct c as [[now' h'] c]. cbn [Registry.tcp_run]. rewrite CL.
    destruct (Nat.leb_spec fdmax p); [reflexivity|lia].
  - cbn [Registry.tcp_run]. rewrite CL. destruct (Nat.leb_spec fdmax p); [lia|].
    rewrite B. cbn [no_reply]. f_equal. apply IH. lia.
Qed.

(* every silent client ahead in the queue costs the server's timeout *)
Fixpoint silent_before (cs : list client) (i : nat) : nat :=
  match cs, i with
  | Silent :: r, S j => S (silent_before r j)
  | _ :: r, S j => silent_before r j
  | _, _ => O
  end.
Lemma reached_at_silent T cs : forall i, reached_at_ms T cs i = T * Z.of_nat (silent_before cs i).
Proof.
  induction cs as [|[|v] r IH]; intros [|j]; cbn [reached_at_ms silent_before]; rewrite ?IH; lia.
Qed.
End ModelP.

Lemma bytes_eqb_eq a b : bytes_eqb a b = true <-> a = b.
Proof.
  revert b. induction a as [|x a IH]; intros [|y b]; cbn; split; try discriminate; auto.
  - intros H. apply andb_prop in H as [H1 H2]. apply Byte.byte_dec_bl in H1. apply IH in H2. now subst.
  - intros [= -> ->]. rewrite (Byte.byte_dec_lb eq_refl). now apply IH.
Qed.

Lemma pyval_eqb_eq : forall a b, pyval_eqb a b = true <-> a = b.
Proof.
  fix IH 1. intros a b. destruct a, b; cbn; try (split; [discriminate|intros [=]]); try (now split).
  - rewrite Bool.eqb_true_iff. split; [now intros ->|now intros [=]].
  - rewrite Z.eqb_eq. split; [now intros ->|now intros [=]].
  - rewrite bytes_eqb_eq. split; [now intros ->|now intros [=]].
  - rewrite bytes_eqb_eq. split; [now intros ->|now intros [=]].
  - rewrite bytes_eqb_eq. split; [now intros ->|now intros [=]].
  - rewrite text_eqb_eq. split; [now intros ->|now intros [=]].
  - revert l0. induction l as [|x l IHl]; intros [|y m]; try (split; discriminate); [now split|].
    rewrite andb_true_iff, (IH x y), IHl. split; [now intros [-> [= ->]]|now intros [= -> ->]].
  - revert l0. induction l as [|x l IHl]; intros [|y m]; try (split; discriminate); [now split|].
    rewrite andb_true_iff, (IH x y), IHl. split; [now intros [-> [= ->]]|now intros [= -> ->]].
  - rewrite !andb_true_iff, !IH. split; [now intros [[-> ->] ->]|now intros [= -> -> ->]].
  - rewrite N.eqb_eq. split; [now intros ->|now intros [=]].
Qed.

Definition keq_equiv (keq : pyval -> pyval -> bool) : Prop :=
  (forall a, keq a a = true) /\ (forall a b, keq a b = keq b a)
  /\ (forall a b c, keq a b = true -> keq b c = true -> keq a c = true).
Lemma pyval_eqb_equiv : keq_equiv pyval_eqb.
Proof. change (equivb pyval_eqb). exact (equivb_of_eq _ pyval_eqb_eq). Qed.

Definition witness_numeric_command : list byte := [x12; x08; x0d; x52; x50; x59; x43; x55; x02].  (* brine.dump(("RPYC", 5, ())) *)

Lemma undecodable_dropped upper lower fso keq enc F pr P now h s dg e : load P dg = Raise e ->
  work_step upper lower fso keq enc F pr P now h s dg = Some (Next s [] None).
Proof. intros E. unfold work_step, decode. now rewrite E. Qed.

Definition h1 : text := T "10.0.0.1".
(* after register FOO :1234; register BAR :999, an unregister :999 logs "removed FOO :999" *)
Definition witness_history : list event :=     (* newest first *)
  [(1001, h1, RRegister [T "BAR"] (PInt 999)); (1000, h1, RRegister [T "FOO"] (PInt 1234))].

(* a concrete [enc]: nesting below a limit (the interpreter's recursion limit seen from _work) *)
Lemma shallow_tuple_ok L : enc_tuple_ok (shallow (S (S L))).
Proof.
  intros l. cbn [shallow]. induction l as [|x r IH]; cbn [forallb]; auto.
  rewrite IH. cbn [shallow forallb]. now rewrite andb_true_r.
Qed.

(* a register with a port nested close to that limit is acknowledged; the next query for that name ends
   the loop (reply not guarded), or is never answered (reply guarded, no validation), or the register
   is refused (validation) *)
Definition deep3 : pyval := PTuple [PTuple [PTuple [PInt 0]]].
Definition register_deep : pyval :=
  PTuple [PStr RPYC; PStr (T "REGISTER"); PTuple [PTuple [PStr (T "deep")]; deep3]].
Definition query_deep : pyval := PTuple [PStr RPYC; PStr (T "QUERY"); PTuple [PStr (T "deep")]].

Lemma register_refused_witness F : register_validates F = true ->
  work_val ascii_upper ascii_lower fso_id pyval_eqb (shallow 5) F 240 1000 h1 [] register_deep = Next [] [] None.
Proof. intros V. destruct F as [g n t rg rv tc se]. cbn in V. subst rv. destruct se; vm_compute; reflexivity. Qed.

(* expiry is noticed only by the next query for that name: at 1010 the registration of 1000 is no longer
   fresh (interval 5) but still counted present, and its re-registration at 1011 notifies nothing *)
Definition lazy_history : list event := [(1010, h1, RNone); (1000, h1, RRegister [T "FOO"] (PInt 1))].

(* a stock client reads MAX_DGRAM_SIZE bytes once *)
Definition client_read (bound : Z) (bs : list byte) : list byte := firstn (Z.to_nat bound) bs.
Lemma whole_reply_read bound bs : Z.of_nat (List.length bs) <= bound -> client_read bound bs = bs.
Proof. intros H. unfold client_read. apply firstn_all2. lia. Qed.
Lemma cut_reply_read bound bs : 0 <= bound < Z.of_nat (List.length bs) -> client_read bound bs <> bs.
Proof.
  intros H E. unfold client_read in E. apply (f_equal (@List.length byte)) in E.
  rewrite firstn_length_le in E by lia. lia.
Qed.

Lemma long_reply_cut P bound (o : outcome) : 0 <= bound ->
  match o with
  | Next _ _ (Some rep) => match dump P rep with Ok bs => bound <? Z.of_nat (List.length bs) | _ => false end
  | _ => false
  end = true ->
  match o with
  | Next _ _ (Some rep) =>
      match dump P rep with
      | Ok bs => bound < Z.of_nat (List.length bs) /\ client_read bound bs <> bs
      | _ => False
      end
  | _ => False
  end.
Proof.
  intros B. destruct o as [s m [rep|]|e]; try discriminate. destruct (dump P rep) as [bs| | |]; try discriminate.
  intros H. apply Z.ltb_lt in H. split; [exact H|]. apply cut_reply_read. lia.
Qed.

(* ninety genuine servers of one name, registered at the same instant *)
Definition many_history : list event :=
  map (fun k => (1000, T "10.0.0.1", RRegister [T "FOO"] (PInt (20000 + Z.of_nat k)))) (seq 0 90).
Lemma mono_const {A} t h (f : A -> req) l : mono (map (fun k => (t, h, f k)) l).
Proof.
  induction l as [|x r IH]; [exact I|]. cbn [map mono]. split; [|exact IH].
  destruct r; cbn; [exact I|lia].
Qed.

(* a port that is not == to itself (NaN): excluded by [keq_refl] wherever the table is read through [lookup] *)
Definition nanbits : list byte := [x7f; xf8; x00; x00; x00; x00; x00; x00].
Definition keq_never (a b : pyval) : bool := false.
Definition nan_history : list event :=
  [(1002, h1, RUnregister (PFloat nanbits)); (1001, h1, RRegister [T "FOO"] (PFloat nanbits));
   (1000, h1, RRegister [T "FOO"] (PFloat nanbits))].
