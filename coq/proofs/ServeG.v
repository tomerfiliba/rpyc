(* A ghost layer over model/Serve.v (the transition system itself is untouched): per thread, how many dispatches had happened at its
   last readiness test, and whether it has slept on the condition since. With it the window of C14 is a statement about HISTORY: a
   waiter that is past its test (trying for the lock, holding it, polling) came there straight from a test made when its reply had not
   been dispatched yet - it never reaches the lock after a sleep without looking at its result again. *)
From V Require Import lib.Base model.Serve proofs.ServeP.

Record ghost := { tlen : nat -> nat; slept : nat -> bool }.
Definition g_init : ghost := {| tlen := fun _ => 0; slept := fun _ => false |}.
Definition gupd (l : label) (i : nat) (s : st) (g : ghost) : ghost :=
  match l with
  | LStep =>
      match tpc (thrs s i) with
      | LoopTest => {| tlen := upd (tlen g) i (List.length (dispatched s)); slept := upd (slept g) i false |}
      | S1 => match holder s with Some _ => {| tlen := tlen g; slept := upd (slept g) i true |} | None => g end
      | _ => g
      end
  | _ => g
  end.
Inductive greach (s0 : st) : st -> ghost -> Prop :=
| g0 : greach s0 s0 g_init
| gS s g l i s' : greach s0 s g -> step l i s = Some s' -> greach s0 s' (gupd l i s g).

Lemma greach_reach s0 s g : greach s0 s g -> reach s0 s.
Proof. induction 1; [constructor|econstructor; eauto]. Qed.
Lemma reach_greach s0 s : reach s0 s -> exists g, greach s0 s g.
Proof. induction 1 as [|s l i s' R [g G] E]; [exists g_init; constructor|exists (gupd l i s g); econstructor; eauto]. Qed.

Definition past_test (p : pc) : bool := match p with S1 | S2 | S3 | S4 | S5 => true | _ => false end.
Definition in_serve (p : pc) : bool := match p with S1 | Asleep | S2 | S3 | S4 | S5 => true | _ => false end.

Record InvG (s : st) (g : ghost) : Prop := {
  G_len : forall w, tlen g w <= List.length (dispatched s);
  G_test : forall w q, myseq (thrs s w) = Some q -> in_serve (tpc (thrs s w)) = true -> ~ In q (firstn (tlen g w) (dispatched s));
  G_slept : forall w, past_test (tpc (thrs s w)) = true -> slept g w = false
}.

Lemma firstn_app_le {A} (l x : list A) n : n <= List.length l -> firstn n (l ++ x) = firstn n l.
Proof. intros H. rewrite firstn_app. replace (n - List.length l) with 0 by lia. cbn. apply app_nil_r. Qed.

Lemma invG_init sv : InvG (init sv) g_init.
Proof. constructor; cbn; intros; [lia|tauto|reflexivity]. Qed.

Lemma not_ready_not_dispatched s q : InvB s -> ready s q = false -> expd s q = false -> ~ In q (dispatched s).
Proof.
  intros IB Hr Hx Hin. apply (proj2 (B_disp s IB)) in Hin. destruct (done_settled s q IB Hin); congruence.
Qed.

(* threads move on without entering serve() or passing the test (the ghost is not touched), while the log may grow *)
Definition stays (t t' : thr) : Prop :=
  (in_serve (tpc t') = true -> in_serve (tpc t) = true /\ myseq t' = myseq t) /\ (past_test (tpc t') = true -> past_test (tpc t) = true).
Lemma invG_kept s g s' : InvG s g -> (dispatched s' = dispatched s \/ exists q, dispatched s' = dispatched s ++ [q]) ->
  (forall j, stays (thrs s j) (thrs s' j)) -> InvG s' g.
Proof.
  intros [Hlen Htest Hslept] Hd Hst.
  assert (Ex : exists x, dispatched s' = dispatched s ++ x) by (destruct Hd as [->|[q ->]]; [exists []; now rewrite app_nil_r|eauto]).
  destruct Ex as [x Ex]. constructor.
  - intros w. rewrite Ex, app_length. specialize (Hlen w). lia.
  - intros w q Hm Hin. destruct (proj1 (Hst w) Hin) as [Hin0 Em]. rewrite Em in Hm.
    rewrite Ex, firstn_app_le by apply Hlen. now apply Htest.
  - intros w Hp. apply Hslept. now apply (Hst w).
Qed.
Lemma stays_refl t : stays t t.
Proof. now repeat split. Qed.
Lemma stays_at s i t' j : stays (thrs s i) t' -> stays (thrs s j) (upd (thrs s) i t' j).
Proof. intros H. thread j i; [exact H|apply stays_refl]. Qed.
(* every move but the one from the test into serve() *)
Lemma move_stays s i l p0 p f hl : tpc (thrs s i) = p0 -> Move s i l p0 p f hl -> (p0 = LoopTest -> in_serve p = false) ->
  forall j, stays (thrs s j) (upd f i (set_pc (thrs s i) p) j).
Proof.
  intros E Hmv Hn j. thread j i.
  - unfold stays. cbn [tpc myseq set_pc]. rewrite E. destruct Hmv; cbn [in_serve past_test]; try (now repeat split).
    discriminate (Hn eq_refl).
  - destruct (move_others s i l p0 p f hl j Hmv) as [-> | ->]; [apply stays_refl|].
    unfold stays. rewrite wake_pc, (proj1 (wake_data (thrs s j))). destruct (tpc (thrs s j)); now repeat split.
Qed.

(* the readiness test: the ghost records the length of the log and forgets the sleep; the thread goes on into serve() only if
   its reply has not been dispatched *)
Lemma invG_test s g i p : InvB s -> InvG s g ->
  (in_serve p = true -> forall q, myseq (thrs s i) = Some q -> ready s q = false /\ expd s q = false) ->
  InvG (moved s (thrs s) i p (holder s)) {| tlen := upd (tlen g) i (length (dispatched s)); slept := upd (slept g) i false |}.
Proof.
  intros IB [Hlen Htest Hslept] Hn. constructor; cbn [thrs dispatched moved tlen slept].
  - intros w. unfold upd. destruct (Nat.eqb w i); [lia|apply Hlen].
  - intros w q. thread w i; [|apply Htest]. intros Hm Hs. destruct (Hn Hs q Hm) as [Hr Hx].
    rewrite firstn_all. exact (not_ready_not_dispatched s q IB Hr Hx).
  - intros w. thread w i; [reflexivity|apply Hslept].
Qed.

Lemma invG_move s g i l p0 p f hl : InvB s -> InvG s g -> tpc (thrs s i) = p0 -> Move s i l p0 p f hl ->
  InvG (moved s f i p hl) (gupd l i s g).
Proof.
  intros IB IG E Hmv. pose proof IG as [Hlen Htest Hslept]. pose proof (move_stays s i l p0 p f hl E Hmv) as Hst.
  (* the ghost is touched only by the test and by going to sleep *)
  destruct Hmv as [_|q _ _|q _ _ _|Hn|Eh|h Eh| | | |]; cbn [gupd]; rewrite ?E, ?Eh;
    try (apply (invG_kept s g); [exact IG|now left|apply Hst; discriminate]).
  - apply invG_test; [exact IB|exact IG|discriminate].
  - apply invG_test; [exact IB|exact IG|discriminate].
  - apply invG_test; [exact IB|exact IG|intros _; exact Hn].
  - constructor; cbn [thrs dispatched moved tlen slept]; [exact Hlen| |].
    + intros w q0. thread w i; [|apply Htest]. intros Hm _. apply Htest; [exact Hm|now rewrite E].
    + intros w. thread w i; [discriminate|apply Hslept].
Qed.

Lemma invG_step s g l i s' : InvB s -> InvG s g -> step l i s = Some s' -> InvG s' (gupd l i s g).
Proof.
  (* apart from the moves the ghost stays: one thread goes on without entering serve() or passing the test, or none moves *)
  intros IB IG H.
  destruct (step_Step _ _ _ _ H) as [l' p0 p f hl E Hmv|E _|q rest E _|q E _|q _|q]; cbn [gupd]; rewrite ?E;
    [now apply (invG_move s g i l' p0)
    |apply (invG_kept s g); [exact IG| |intros j; apply stays_at; unfold stays; now rewrite ?E]..
    |apply (invG_kept s g); [exact IG|now left|intros j; apply stays_refl]
    |apply (invG_kept s g); [exact IG|now left|intros j; apply stays_refl]].
  (* the log grows only by the dispatch *)
  - now left.
  - now left.
  - right. now exists q.
Qed.

Theorem invG_greach sv s g : greach (init sv) s g -> InvG s g.
Proof.
  induction 1 as [|s g l i s' R IH E]; [apply invG_init|].
  apply invG_step; [exact (invB_reach sv s (greach_reach _ _ _ R))|exact IH|exact E].
Qed.

(* C14's window, as history: a waiter past its readiness test (trying for the lock, holding it, polling, about to notify or dispatch)
   whose reply HAS been processed made that test when the reply had not been dispatched yet, and has not slept on the condition since -
   it came straight from the test. (A woken sleeper goes back to the test first: it is never past the test with [slept] set.) *)
Theorem window_entered_from_the_test sv s g w q : greach (init sv) s g ->
  myseq (thrs s w) = Some q -> past_test (tpc (thrs s w)) = true ->
  ~ In q (firstn (tlen g w) (dispatched s)) /\ slept g w = false.
Proof.
  intros R Hm Hp. destruct (invG_greach sv s g R) as [_ Ht Hs]. split; [|now apply Hs].
  apply Ht; [exact Hm|]. destruct (tpc (thrs s w)); try discriminate; reflexivity.
Qed.
