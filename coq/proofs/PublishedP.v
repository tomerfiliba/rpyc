(* C19 proofs: generated tables = published tables; the ladders pick the shortest admissible form. *)
From V Require Import lib.Base model.Ladder model.Brine model.Published
  gen.Gen_brine gen.Gen_consts gen.Gen_channel gen.Gen_protocol.
Open Scope N_scope.

Lemma tables_eq :
  Gen_brine.all_tags = pub_tags /\ Gen_brine.imm_lo = pub_imm_lo /\ Gen_brine.imm_hi = pub_imm_hi /\ Gen_brine.imm_off = pub_imm_off
  /\ Gen_brine.bytes_ladder = pub_str_ladder /\ Gen_brine.tuple_ladder = pub_tup_ladder /\ Gen_brine.int_ladder = pub_int_ladder
  /\ Gen_brine.struct_formats = pub_structs.
Proof. repeat split. Qed.

Lemma frame_params_eq :
  Gen_channel.COMPRESSION_THRESHOLD = pub_threshold /\ Gen_channel.COMPRESSION_LEVEL = pub_level
  /\ Gen_channel.FRAME_HEADER_format = pub_header_format /\ Gen_channel.FRAME_HEADER_size = pub_header_size
  /\ Gen_channel.FLUSHER = pub_flusher /\ Gen_channel.compress_when_len = pub_compress_when.
Proof. repeat split. Qed.

(* every published number is present with its value; nothing on the wire is renumbered: the generated table is the
   published one followed by STREAM_CHUNK, which is a buffer size and never travels *)
Lemma consts_incl : forall k v, In (k, v) pub_consts -> In (k, v) Gen_consts.all_consts.
Proof. intros k v H. apply (in_or_app pub_consts [_]). now left. Qed.
Lemma handlers_eq : Gen_protocol.handler_table = pub_handlers.
Proof. reflexivity. Qed.
Lemma message_layout : Gen_protocol.send_packs_msg_seq_args = true /\ Gen_protocol.dispatch_unpacks_msg_seq_args = true
  /\ Gen_protocol.request_args_are_handler_boxed = true /\ Gen_protocol.request_unpacks_handler_args = true.
Proof. repeat split. Qed.

(* model ladders are the published ones (so C04's theorems are about the published format) *)
Lemma model_ladders_published : Brine.str_ladder = pub_str_ladder /\ Brine.tup_ladder = pub_tup_ladder /\ Brine.int_ladder = pub_int_ladder.
Proof. repeat split. Qed.

Definition shortest_for (l : ladder) : Prop :=
  forall n h, n < 4294967296 -> ladder_hdr l n = Ok h ->
  forall e, In e l -> entry_admits e n = true -> nlen h <= entry_hdr_len e.

(* A ladder emits the header of the first class whose test holds. When every class that can express a length also passes its
   own test on it, and header lengths never decrease along the ladder, no admissible class has a shorter header. *)
Lemma shortest_sorted (l : ladder) :
  (forall c k t f n, In (c, k, t, f) l -> entry_admits (c, k, t, f) n = true -> lcmp_holds c n k = true) ->
  ForallOrdPairs (fun a b => entry_hdr_len a <= entry_hdr_len b) l -> shortest_for l.
Proof.
  intros Hadm Hs n h _. induction Hs as [|[[[c k] t] f] l Hle _ IH]; cbn [ladder_hdr]; [discriminate|].
  destruct (lcmp_holds c n k) eqn:Hc.
  - intros Hh e He Ha.
    assert (Hlen : nlen h = entry_hdr_len (c, k, t, f)).
    { destruct f; cbn [lfield_bytes] in Hh; unfold pack_I1, pack_I4 in Hh;
        [|destruct (n <? 256)|destruct (n <? 4294967296)]; try discriminate; now injection Hh as <-. }
    destruct He as [<-|He]; [lia|]. rewrite Forall_forall in Hle. specialize (Hle e He). lia.
  - intros Hh [[[c' k'] t'] f'] [[= <- <- <- <-]|He] Ha.
    + rewrite (Hadm c k t f n (or_introl eq_refl) Ha) in Hc. discriminate.
    + apply (IH (fun c k t f n H => Hadm c k t f n (or_intror H)) Hh _ He Ha).
Qed.

Lemma shortest_published : shortest_for pub_str_ladder /\ shortest_for pub_tup_ladder /\ shortest_for pub_int_ladder.
Proof.
  repeat split; (apply shortest_sorted; [|repeat constructor; cbn; lia]);
    intros c k t f n He; cbn [pub_str_ladder pub_tup_ladder pub_int_ladder In] in He;
    repeat (destruct He as [[= <- <- <- <-]|He]; [now cbn|]); contradiction.
Qed.
(* integers: the one-byte immediate is used whenever the format has one *)
Lemma imm_used P z : is_imm z = true -> exists b, dump_int P z = Ok [b].
Proof. intros H. unfold dump_int. rewrite H. eauto. Qed.
