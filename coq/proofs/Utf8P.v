(* lib/Utf8.v: decoding inverts encoding, by length class over base-64 digits *)
From V Require Import lib.Base lib.Utf8.
From Coq Require Import ZifyBool.
Open Scope N_scope.
(* as in BrineP *)
Ltac Zify.zify_post_hook ::= Z.to_euclidean_division_equations.

Lemma cont_byte r : r < 64 -> cont (0x80 + r) = true.
Proof. unfold cont. lia. Qed.
Lemma add_sub_l k x : k + x - k = x.
Proof. rewrite N.add_comm. apply N.add_sub. Qed.

Section Sequences.
Variables (sp : bool) (rest : list byte).

Lemma dec1_2 c q a : c = q * 64 + a -> a < 64 -> 0x80 <= c < 0x800 ->
  dec1 sp (b_of (0xC0 + q) :: b_of (0x80 + a) :: rest) = Some (c, rest).
Proof.
  intros -> Ha Hc. cbn [dec1]. rewrite !to_b_of by lia. rewrite (cont_byte a Ha).
  replace (0xC0 + q <? 0x80) with false by lia.
  replace (inr 0xC2 0xDF (0xC0 + q)) with true by (unfold inr; lia).
  now rewrite !add_sub_l.
Qed.

Lemma dec1_3 c q a b : c = q * 4096 + a * 64 + b -> a < 64 -> b < 64 -> 0x800 <= c < 0x10000 ->
  is_surrogate c && negb sp = false ->
  dec1 sp (b_of (0xE0 + q) :: b_of (0x80 + a) :: b_of (0x80 + b) :: rest) = Some (c, rest).
Proof.
  intros -> Ha Hb Hc Hs. cbn [dec1]. rewrite !to_b_of by lia. rewrite (cont_byte a Ha), (cont_byte b Hb).
  replace (0xE0 + q <? 0x80) with false by lia.
  replace (inr 0xC2 0xDF (0xE0 + q)) with false by (unfold inr; lia).
  replace (inr 0xE0 0xEF (0xE0 + q)) with true by (unfold inr; lia).
  (* byte 2 excludes overlong forms (lead E0) and, unless passed, surrogates (lead ED) *)
  set (ok1 := if 0xE0 + q =? 0xE0 then _ else _).
  assert (F : ok1 = true); [|rewrite F; cbn [andb]; now rewrite !add_sub_l].
  subst ok1. unfold is_surrogate in Hs. unfold inr, cont.
  destruct (N.eqb_spec (0xE0 + q) 0xE0); [lia|]. destruct (N.eqb_spec (0xE0 + q) 0xED); [|lia]. destruct sp; lia.
Qed.

Lemma dec1_4 c q a b d : c = q * 262144 + a * 4096 + b * 64 + d -> a < 64 -> b < 64 -> d < 64 -> 0x10000 <= c < 0x110000 ->
  dec1 sp (b_of (0xF0 + q) :: b_of (0x80 + a) :: b_of (0x80 + b) :: b_of (0x80 + d) :: rest) = Some (c, rest).
Proof.
  intros -> Ha Hb Hd Hc. cbn [dec1]. rewrite !to_b_of by lia. rewrite (cont_byte b Hb), (cont_byte d Hd).
  replace (0xF0 + q <? 0x80) with false by lia.
  replace (inr 0xC2 0xDF (0xF0 + q)) with false by (unfold inr; lia).
  replace (inr 0xE0 0xEF (0xF0 + q)) with false by (unfold inr; lia).
  replace (inr 0xF0 0xF4 (0xF0 + q)) with true by (unfold inr; lia).
  (* byte 2 excludes overlong forms (lead F0) and code points above 0x10FFFF (lead F4) *)
  set (ok1 := if 0xF0 + q =? 0xF0 then _ else _).
  assert (F : ok1 = true); [|rewrite F; cbn [andb]; now rewrite !add_sub_l].
  subst ok1. unfold inr, cont.
  destruct (N.eqb_spec (0xF0 + q) 0xF0); [lia|]. destruct (N.eqb_spec (0xF0 + q) 0xF4); lia.
Qed.
End Sequences.

Lemma digits64 c : c = c / 64 * 64 + c mod 64.
Proof. rewrite N.mul_comm. apply N.div_mod'. Qed.
Lemma digits64_3 c : c = c / 4096 * 4096 + (c / 64) mod 64 * 64 + c mod 64.
Proof.
  pose proof (digits64 c) as E0. pose proof (digits64 (c / 64)) as E1. rewrite N.div_div in E1 by discriminate.
  change (64 * 64) with 4096 in E1. revert E0 E1. generalize (c / 4096), ((c / 64) mod 64). generalize (c / 64), (c mod 64).
  intros q1 b q2 a -> ->. ring.
Qed.
Lemma digits64_4 c : c = c / 262144 * 262144 + (c / 4096) mod 64 * 4096 + (c / 64) mod 64 * 64 + c mod 64.
Proof.
  pose proof (digits64_3 c) as E0. pose proof (digits64 (c / 4096)) as E1. rewrite N.div_div in E1 by discriminate.
  change (4096 * 64) with 262144 in E1. revert E0 E1. generalize (c / 262144), ((c / 4096) mod 64). generalize (c / 4096).
  generalize ((c / 64) mod 64), (c mod 64). intros a b q2 q3 d -> ->. ring.
Qed.

Lemma dec1_enc1 sp c bs rest : enc1 sp c = Some bs -> dec1 sp (bs ++ rest) = Some (c, rest).
Proof.
  assert (D : forall x, x mod 64 < 64) by (intros; now apply N.mod_lt).
  unfold enc1.
  destruct (N.ltb_spec c 0x80).
  { intros [= <-]. cbn [app dec1]. rewrite to_b_of by lia. now replace (c <? 0x80) with true by lia. }
  destruct (N.ltb_spec c 0x800).
  { intros [= <-]. apply dec1_2; auto using digits64. }
  destruct (N.ltb_spec c 0x10000).
  { destruct (is_surrogate c && negb sp) eqn:ES; [discriminate|]. intros [= <-]. apply dec1_3; auto using digits64_3. }
  destruct (N.ltb_spec c 0x110000); [|discriminate].
  intros [= <-]. apply dec1_4; auto using digits64_4.
Qed.

Lemma enc1_length sp c bs : enc1 sp c = Some bs -> (1 <= length bs <= 4)%nat.
Proof.
  unfold enc1. repeat match goal with |- context [if ?c then _ else _] => destruct c end;
  intros [= <-] || discriminate; cbn [length]; lia.
Qed.
Lemma encode_length sp : forall cs bs, utf8_encode sp cs = Ok bs -> nlen bs <= 4 * nlen cs.
Proof.
  unfold nlen. induction cs as [|c t IH]; intros bs; cbn [utf8_encode].
  - intros [= <-]. reflexivity.
  - destruct (enc1 sp c) as [e|] eqn:E; [|discriminate]. apply enc1_length in E.
    intros H. apply bind_Ok in H as (r & Er & [= <-]). specialize (IH r Er). rewrite app_length. cbn [length]. lia.
Qed.

Lemma decode_encode_f sp : forall cs bs f, utf8_encode sp cs = Ok bs -> (length bs <= f)%nat ->
  utf8_decode_f f sp bs = Ok cs.
Proof.
  induction cs as [|c t IH]; intros bs f.
  - intros [= <-] _. destruct f; reflexivity.
  - cbn [utf8_encode]. destruct (enc1 sp c) as [e|] eqn:E; [|discriminate].
    intros H Hf. apply bind_Ok in H as (r & ER & [= <-]).
    pose proof (enc1_length _ _ _ E) as NE.
    destruct e as [|e0 e']; [cbn in NE; lia|]. cbn [app].
    destruct f as [|f]; [cbn in Hf; lia|]. cbn [utf8_decode_f].
    change (e0 :: e' ++ r) with ((e0 :: e') ++ r). rewrite (dec1_enc1 _ _ _ _ E).
    rewrite (IH r f ER); [reflexivity|]. cbn in Hf. rewrite app_length in Hf. lia.
Qed.

Theorem utf8_roundtrip sp cs bs : utf8_encode sp cs = Ok bs -> utf8_decode sp bs = Ok cs.
Proof. intros H. unfold utf8_decode. eapply decode_encode_f; eauto. Qed.

(* fuel: one unit per byte, and every code point takes at least one *)
Lemma dec1_shrinks sp l c r : dec1 sp l = Some (c, r) -> (length r < length l)%nat.
Proof.
  unfold dec1. destruct l as [|b0 t0]; [discriminate|]. cbv zeta.
  destruct (_ <? 0x80); [intros [= <- <-]; cbn [length]; lia|].
  destruct (inr 0xC2 0xDF _).
  { destruct t0 as [|b1 t1]; [discriminate|]. destruct (cont _); [|discriminate]. intros [= <- <-]. cbn [length]. lia. }
  destruct (inr 0xE0 0xEF _).
  { destruct t0 as [|b1 [|b2 t2]]; try discriminate. destruct (_ && _); [|discriminate]. intros [= <- <-]. cbn [length]. lia. }
  destruct (inr 0xF0 0xF4 _); [|discriminate].
  destruct t0 as [|b1 [|b2 [|b3 t3]]]; try discriminate. destruct (_ && _); [|discriminate]. intros [= <- <-]. cbn [length]. lia.
Qed.
Lemma utf8_decode_f_total sp : forall f l, (length l <= f)%nat -> utf8_decode_f f sp l <> OutOfFuel.
Proof.
  induction f as [|f IH]; intros l Hl; destruct l as [|b t]; cbn [utf8_decode_f]; try discriminate; [cbn in Hl; lia|].
  destruct (dec1 sp (b :: t)) as [[c r]|] eqn:E; [|discriminate].
  apply dec1_shrinks in E. specialize (IH r ltac:(cbn [length] in *; lia)).
  destruct (utf8_decode_f f sp r); cbn [bind]; try discriminate. congruence.
Qed.
Lemma utf8_decode_total sp l : utf8_decode sp l <> OutOfFuel.
Proof. apply utf8_decode_f_total, le_n. Qed.

(* encoding succeeds exactly on well-formed code points without (unpassed) surrogates *)
Definition cp_ok (sp : bool) (c : N) : bool := (c <? 0x110000) && negb (is_surrogate c && negb sp).
Lemma enc1_ok sp c : cp_ok sp c = true -> exists bs, enc1 sp c = Some bs.
Proof.
  unfold cp_ok, enc1. intros H. apply andb_true_iff in H as [H1 H2].
  apply negb_true_iff in H2.
  destruct (c <? 0x80); [eauto|]. destruct (c <? 0x800); [eauto|].
  destruct (c <? 0x10000); [rewrite H2; eauto|]. rewrite H1. eauto.
Qed.
Lemma enc1_fail sp c : cp_ok sp c = false -> enc1 sp c = None.
Proof.
  unfold cp_ok, enc1, is_surrogate. intros H.
  destruct (N.ltb_spec c 0x80); [exfalso; lia|]. destruct (N.ltb_spec c 0x800); [exfalso; lia|].
  destruct (N.ltb_spec c 0x10000).
  { destruct ((0xD800 <=? c) && (c <=? 0xDFFF) && negb sp) eqn:E; [reflexivity|]. exfalso. destruct sp; cbn in *; lia. }
  destruct (N.ltb_spec c 0x110000); [|reflexivity]. exfalso.
  destruct sp; cbn in H; lia.
Qed.
Lemma encode_ok sp cs : forallb (cp_ok sp) cs = true -> exists bs, utf8_encode sp cs = Ok bs.
Proof.
  induction cs as [|c t IH]; cbn [forallb utf8_encode]; [eauto|].
  intros H. apply andb_true_iff in H as [Hc Ht]. destruct (enc1_ok _ _ Hc) as [e ->].
  destruct (IH Ht) as [r ->]. cbn. eauto.
Qed.
Lemma encode_fail sp cs : forallb (cp_ok sp) cs = false -> utf8_encode sp cs = Raise UnicodeError.
Proof.
  induction cs as [|c t IH]; cbn [forallb utf8_encode]; [discriminate|].
  destruct (cp_ok sp c) eqn:Hc; cbn [andb].
  - intros Ht. destruct (enc1_ok _ _ Hc) as [e ->]. rewrite (IH Ht). reflexivity.
  - intros _. now rewrite (enc1_fail _ _ Hc).
Qed.
