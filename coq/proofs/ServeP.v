(* Invariants of model/Serve.v: any number of threads, any scheduler, any answer order, nondeterministic timeouts. *)
From V Require Import lib.Base model.Serve.

Lemma upd_same {A} (f : nat -> A) i v : upd f i v i = v.
Proof. unfold upd. now rewrite Nat.eqb_refl. Qed.
Lemma upd_other {A} (f : nat -> A) i j v : j <> i -> upd f i v j = f j.
Proof. unfold upd. intros H. apply Nat.eqb_neq in H. now rewrite H. Qed.

Lemma upd_neither {A} (f : nat -> A) q v x r : f q <> x -> v <> x -> upd f q v r = x <-> f r = x.
Proof. intros Hf Hv. unfold upd. destruct (Nat.eqb_spec r q) as [->|]; [split; intros E; contradiction|reflexivity]. Qed.
Lemma upd_to {A} (f : nat -> A) q x r : upd f q x r = x <-> r = q \/ f r = x.
Proof. unfold upd. destruct (Nat.eqb_spec r q); [split; auto|split; [auto|intros [E|E]; [contradiction|exact E]]]. Qed.
Lemma upd_from {A} (f : nat -> A) q v x r : f q = x -> v <> x -> upd f q v r = x <-> r <> q /\ f r = x.
Proof.
  intros Hf Hv. unfold upd. destruct (Nat.eqb_spec r q) as [->|]; [|split; [auto|intros [_ E]; exact E]].
  split; [intros E; contradiction|intros [E _]; contradiction].
Qed.

Ltac thread j i :=
  destruct (Nat.eq_dec j i) as [->|?]; [rewrite ?upd_same|rewrite ?upd_other by assumption]; cbn [tpc myseq hand server set_pc].

Lemma wake_pc t : tpc (wake t) = match tpc t with Asleep => LoopTest | p => p end.
Proof. destruct t as [p m h sv]. destruct p; reflexivity. Qed.
Lemma wake_data t : myseq (wake t) = myseq t /\ hand (wake t) = hand t.
Proof. unfold wake. destruct (tpc t); auto. Qed.

(* [step] as rules: each kind's guard and successor (step_Step). First the kinds that touch no request, stream, cell or log:
   thread i goes from p0 to p in table f (the present one or, at notify_all, its sleepers woken); the lock becomes hl. *)
Inductive Move (s : st) (i : nat) : label -> pc -> pc -> (nat -> thr) -> option nat -> Prop :=
| mv_start : server (thrs s i) = true -> Move s i LIssue Idle LoopTest (thrs s) (holder s)
| mv_return q : myseq (thrs s i) = Some q -> ready s q = true -> Move s i LStep LoopTest Returned (thrs s) (holder s)
| mv_give_up q : myseq (thrs s i) = Some q -> ready s q = false -> expd s q = true ->
    Move s i LStep LoopTest TimedOut (thrs s) (holder s)
| mv_serve : (forall q, myseq (thrs s i) = Some q -> ready s q = false /\ expd s q = false) ->
    Move s i LStep LoopTest S1 (thrs s) (holder s)
| mv_acquire : holder s = None -> Move s i LStep S1 S2 (thrs s) (Some i)
| mv_sleep h : holder s = Some h -> Move s i LStep S1 Asleep (thrs s) (holder s)
| mv_release : Move s i LStep S3 S4 (thrs s) None
| mv_notify : Move s i LStep S4 (match hand (thrs s i) with Some _ => S5 | None => LoopTest end) (fun j => wake (thrs s j)) (holder s)
| mv_wait_timeout : Move s i LTimeout Asleep LoopTest (thrs s) (holder s)
| mv_poll_timeout : Move s i LTimeout S2 S3 (thrs s) (holder s).

Definition moved (s : st) (f : nat -> thr) (i : nat) (p : pc) (hl : option nat) : st :=
  {| thrs := upd f i (set_pc (thrs s i) p); counter := counter s; pending := pending s; inbox := inbox s; holder := hl;
     ready := ready s; dispatched := dispatched s; ph := ph s; expd := expd s; late := late s |}.

Inductive Step (s : st) (i : nat) : label -> st -> Prop :=
| by_move l p0 p f hl : tpc (thrs s i) = p0 -> Move s i l p0 p f hl -> Step s i l (moved s f i p hl)
| by_issue : tpc (thrs s i) = Idle -> server (thrs s i) = false ->
    Step s i LIssue
      {| thrs := upd (thrs s) i {| tpc := LoopTest; myseq := Some (counter s); hand := None; server := false |};
         counter := S (counter s); pending := upd (pending s) (counter s) (Some i); inbox := inbox s; holder := holder s;
         ready := ready s; dispatched := dispatched s; ph := upd (ph s) (counter s) POut; expd := expd s; late := late s |}
| by_read q rest : tpc (thrs s i) = S2 -> inbox s = q :: rest ->
    Step s i LStep
      {| thrs := upd (thrs s) i {| tpc := S3; myseq := myseq (thrs s i); hand := Some q; server := server (thrs s i) |};
         counter := counter s; pending := pending s; inbox := rest; holder := holder s;
         ready := ready s; dispatched := dispatched s; ph := upd (ph s) q (PHand i); expd := expd s; late := late s |}
| by_dispatch q : tpc (thrs s i) = S5 -> hand (thrs s i) = Some q ->
    Step s i LStep
      {| thrs := upd (thrs s) i {| tpc := LoopTest; myseq := myseq (thrs s i); hand := None; server := server (thrs s i) |};
         counter := counter s; pending := upd (pending s) q None; inbox := inbox s; holder := holder s;
         ready := (match pending s q with Some _ => if expd s q then ready s else upd (ready s) q true | None => ready s end);
         dispatched := dispatched s ++ [q]; ph := upd (ph s) q PDone; expd := expd s;
         late := (if expd s q then upd (late s) q true else late s) |}
| by_answer q : ph s q = POut ->
    Step s i (LAnswer q)
      {| thrs := thrs s; counter := counter s; pending := pending s; inbox := inbox s ++ [q]; holder := holder s;
         ready := ready s; dispatched := dispatched s; ph := upd (ph s) q PIn; expd := expd s; late := late s |}
| by_expire q :
    Step s i (LExpire q)
      {| thrs := thrs s; counter := counter s; pending := pending s; inbox := inbox s; holder := holder s;
         ready := ready s; dispatched := dispatched s; ph := ph s; expd := upd (expd s) q true; late := late s |}.

Lemma step_Step s l i s' : step l i s = Some s' -> Step s i l s'.
Proof.
  unfold step. destruct l as [| | |q|q].
  - destruct (tpc (thrs s i)) eqn:E; try discriminate.
    destruct (server (thrs s i)) eqn:Es; intros [= <-]; [apply (by_move s i _ Idle), mv_start|apply by_issue]; assumption.
  - destruct (tpc (thrs s i)) eqn:E; try discriminate.
    + destruct (myseq (thrs s i)) as [q|] eqn:Em; [destruct (ready s q) eqn:Er; [|destruct (expd s q) eqn:Ex]|]; intros [= <-];
        apply (by_move s i _ LoopTest); try exact E.
      * now apply (mv_return s i q).
      * now apply (mv_give_up s i q).
      * apply mv_serve. intros q' Hq. rewrite Em in Hq. injection Hq as <-. now split.
      * apply mv_serve. intros q' Hq. rewrite Em in Hq. discriminate.
    + destruct (holder s) as [h|] eqn:Eh; intros [= <-]; apply (by_move s i _ S1); try exact E;
        [now apply (mv_sleep s i h)|now apply mv_acquire].
    + destruct (inbox s) as [|q rest] eqn:Ei; [discriminate|]. intros [= <-]. now apply by_read.
    + intros [= <-]. exact (by_move s i _ S3 _ _ _ E (mv_release s i)).
    + intros [= <-]. exact (by_move s i _ S4 _ _ _ E (mv_notify s i)).
    + destruct (hand (thrs s i)) as [q|] eqn:Eh; [|discriminate]. intros [= <-]. now apply by_dispatch.
  - destruct (tpc (thrs s i)) eqn:E; try discriminate; intros [= <-];
      [exact (by_move s i _ Asleep _ _ _ E (mv_wait_timeout s i))|exact (by_move s i _ S2 _ _ _ E (mv_poll_timeout s i))].
  - destruct (ph s q) eqn:Ep; try discriminate. intros [= <-]. now apply by_answer.
  - intros [= <-]. apply by_expire.
Qed.

Lemma move_others s i l p0 p f hl j : Move s i l p0 p f hl -> f j = thrs s j \/ f j = wake (thrs s j).
Proof. destruct 1; auto. Qed.

Definition holds_lock (p : pc) : bool := match p with S2 | S3 => true | _ => false end.
Definition will_notify (p : pc) : bool := match p with S2 | S3 | S4 => true | _ => false end.

(* The receive lock and the condition variable. *)
Record InvA (s : st) : Prop := {
  A_hold : forall i, holds_lock (tpc (thrs s i)) = true <-> holder s = Some i;
  A_wake : forall i, tpc (thrs s i) = Asleep -> exists h, will_notify (tpc (thrs s h)) = true
}.

Lemma invA_init sv : InvA (init sv).
Proof. constructor; cbn; intros i; [split; intros; discriminate|intros; discriminate]. Qed.

Lemma invA_quiet s i t' s' : InvA s -> thrs s' = upd (thrs s) i t' -> holder s' = holder s ->
  holds_lock (tpc t') = holds_lock (tpc (thrs s i)) ->
  (will_notify (tpc (thrs s i)) = true -> will_notify (tpc t') = true) -> tpc t' <> Asleep -> InvA s'.
Proof.
  intros [Hh Hw] Et El Ehl Ewn Hna. constructor; rewrite Et.
  - intros j. rewrite El, <- Hh. thread j i; [now rewrite Ehl|reflexivity].
  - intros j. thread j i; [contradiction|]. intros Hj. destruct (Hw j Hj) as [h Hn]. exists h. thread h i; auto.
Qed.

Lemma invA_move s i l p0 p f hl : InvA s -> tpc (thrs s i) = p0 -> Move s i l p0 p f hl -> InvA (moved s f i p hl).
Proof.
  intros IA E Hmv. pose proof IA as [Hh Hw]. pose proof (Hh i) as Hhi.
  (* all moves but four are quiet *)
  destruct Hmv as [_|q _ _|q _ _ _|_|El|h El| | | | ]; rewrite E in Hhi;
    try (eapply (invA_quiet s i); [exact IA|reflexivity|reflexivity|..]; rewrite ?E; now cbn); constructor; cbn [thrs holder moved].
  - (* the lock was free: i takes it *)
    intros j. thread j i; [cbn; tauto|]. rewrite Hh, El. split; [discriminate|congruence].
  - intros j _. exists i. now rewrite upd_same.
  - (* taken: i sleeps behind the holder, who is due to notify *)
    intros j. thread j i; [exact Hhi|apply Hh].
  - assert (Hn : will_notify (tpc (thrs s h)) = true) by (apply Hh in El; destruct (tpc (thrs s h)); discriminate || reflexivity).
    intros j _. exists h. thread h i; [rewrite E in Hn; discriminate|exact Hn].
  - (* release *)
    assert (El : holder s = Some i) by now apply Hhi.
    intros j. thread j i; [split; discriminate|]. rewrite Hh, El. split; [congruence|discriminate].
  - intros j _. exists i. now rewrite upd_same.
  - (* notify_all: nobody sleeps afterwards *)
    intros j. rewrite <- Hh. thread j i; [destruct (hand (thrs s i)); rewrite E; reflexivity|].
    rewrite wake_pc. now destruct (tpc (thrs s j)).
  - intros j. thread j i; [destruct (hand (thrs s i)); discriminate|]. rewrite wake_pc. destruct (tpc (thrs s j)); discriminate.
Qed.

Lemma invA_step s l i s' : InvA s -> step l i s = Some s' -> InvA s'.
Proof.
  (* data kinds are quiet; the environment touches no thread or lock *)
  intros IA H. destruct (step_Step _ _ _ _ H) as [l' p0 p f hl E Hmv|E _|q rest E _|q E _|q _|q];
    [exact (invA_move s i l' p0 p f hl IA E Hmv)
    |eapply (invA_quiet s i); [exact IA|reflexivity|reflexivity|..]; rewrite ?E; now cbn..
    |destruct IA; now constructor|destruct IA; now constructor].
Qed.

Theorem invA_reach sv s : reach (init sv) s -> InvA s.
Proof. intros R. induction R; [apply invA_init|eauto using invA_step]. Qed.

(* Where every reply is, who owns it, and that it is dispatched once. *)
Definition carries (p : pc) : bool := match p with S3 | S4 | S5 => true | _ => false end.

Record InvB (s : st) : Prop := {
  B_hand1 : forall i q, hand (thrs s i) = Some q -> ph s q = PHand i /\ carries (tpc (thrs s i)) = true;
  B_hand2 : forall q i, ph s q = PHand i -> hand (thrs s i) = Some q;
  B_s5    : forall i, tpc (thrs s i) = S5 -> hand (thrs s i) <> None;
  B_inbox : NoDup (inbox s) /\ forall q, In q (inbox s) <-> ph s q = PIn;
  B_fresh : forall q, counter s <= q <-> ph s q = PNone;
  B_pend  : forall q, (pending s q = None <-> (ph s q = PNone \/ ph s q = PDone))
                      /\ forall t, pending s q = Some t -> myseq (thrs s t) = Some q;
  B_ready : forall q, ready s q = true <-> (ph s q = PDone /\ late s q = false);
  B_late  : forall q, late s q = true -> ph s q = PDone /\ expd s q = true;
  B_disp  : NoDup (dispatched s) /\ forall q, In q (dispatched s) <-> ph s q = PDone;
  B_seq   : (forall i q, myseq (thrs s i) = Some q -> q < counter s)
            /\ forall i j q, myseq (thrs s i) = Some q -> myseq (thrs s j) = Some q -> i = j;
  B_idle  : forall i, tpc (thrs s i) = Idle -> myseq (thrs s i) = None
}.

Lemma invB_init sv : InvB (init sv).
Proof.
  constructor; cbn.
  - discriminate.
  - discriminate.
  - discriminate.
  - split; [constructor|]. intros q. split; [tauto|discriminate].
  - intros q. split; [reflexivity|intros; lia].
  - intros q. split; [split; [auto|reflexivity]|discriminate].
  - intros q. split; [discriminate|intros [X _]; discriminate].
  - discriminate.
  - split; [constructor|]. intros q. split; [tauto|discriminate].
  - split; discriminate.
  - reflexivity.
Qed.

Lemma hand_none_not_carrying s i : InvB s -> carries (tpc (thrs s i)) = false -> hand (thrs s i) = None.
Proof.
  intros I Hc. destruct (hand (thrs s i)) as [q|] eqn:E; [|reflexivity].
  destruct (B_hand1 s I i q E) as [_ X]. congruence.
Qed.

Lemma done_settled s q : InvB s -> ph s q = PDone -> ready s q = true \/ expd s q = true.
Proof.
  intros I Hp. destruct (late s q) eqn:El; [right; apply (B_late s I q El)|left; apply (B_ready s I q); auto].
Qed.

(* a list of exactly the requests in phase x, when q changes phase *)
Definition lists (l : list nat) (f : nat -> phase) (x : phase) : Prop := NoDup l /\ forall q, In q l <-> f q = x.
Lemma B_inbox_lists s : InvB s -> lists (inbox s) (ph s) PIn.
Proof. exact (B_inbox s). Qed.
Lemma B_disp_lists s : InvB s -> lists (dispatched s) (ph s) PDone.
Proof. exact (B_disp s). Qed.
Lemma lists_kept l f x q v : lists l f x -> f q <> x -> v <> x -> lists l (upd f q v) x.
Proof. intros [Hn Hl] Hf Hv. split; [exact Hn|]. intros r. now rewrite upd_neither. Qed.
Lemma lists_app l f x q : lists l f x -> f q <> x -> lists (l ++ [q]) (upd f q x) x.
Proof.
  intros [Hn Hl] Hf. split.
  - apply NoDup_snoc; [now rewrite Hl|exact Hn].
  - intros r. rewrite in_app_iff, upd_to, Hl. cbn. intuition.
Qed.
Lemma lists_tail rest f x q v : lists (q :: rest) f x -> v <> x -> lists rest (upd f q v) x.
Proof.
  intros [Hn Hl] Hv. inversion Hn as [|? ? Hq Hr]; subst. split; [exact Hr|].
  intros r. rewrite upd_from; [|apply Hl; now left|exact Hv]. rewrite <- Hl. cbn.
  split; [intros X; split; [intros ->; contradiction|now right]|intros [A [B|B]]; [congruence|exact B]].
Qed.

(* threads change place (the lock its holder), not what they carry *)
Definition same_load (t t' : thr) : Prop :=
  myseq t' = myseq t /\ hand t' = hand t /\ (carries (tpc t) = true -> hand t <> None -> carries (tpc t') = true)
  /\ (tpc t' = S5 -> hand t <> None) /\ (tpc t' = Idle -> tpc t = Idle).
Lemma invB_move s i l p0 p f hl : InvB s -> tpc (thrs s i) = p0 -> Move s i l p0 p f hl -> InvB (moved s f i p hl).
Proof.
  intros I E Hmv.
  assert (Hsame : forall j, same_load (thrs s j) (upd f i (set_pc (thrs s i) p) j)).
  { intros j. pose proof (B_s5 s I j) as H5. unfold same_load. thread j i.
    - rewrite E. destruct Hmv; try (now repeat split). destruct (hand (thrs s i)); repeat split; congruence.
    - destruct (move_others s i l p0 p f hl j Hmv) as [-> | ->]; [now repeat split|].
      destruct (wake_data (thrs s j)) as [-> ->]. rewrite wake_pc. destruct (tpc (thrs s j)); now repeat split. }
  destruct I as [H1 H2 H5 Hi Hf Hp Hr Hl Hd [Hs1 Hs2] Hid].
  constructor; cbn [thrs counter pending inbox holder ready dispatched ph expd late moved]; auto.
  - intros j q Hh. destruct (Hsame j) as (_ & Eh & Hc & _). rewrite Eh in Hh. destruct (H1 j q Hh) as [A B]. split; [exact A|].
    apply Hc; congruence.
  - intros q j Hq. destruct (Hsame j) as (_ & Eh & _). rewrite Eh. now apply H2.
  - intros j Hj5. destruct (Hsame j) as (_ & Eh & _ & X & _). rewrite Eh. now apply X.
  - intros q. destruct (Hp q) as [Ha Hb]. split; [exact Ha|]. intros t Ht. destruct (Hsame t) as [Em _]. rewrite Em. now apply Hb.
  - split.
    + intros j q. destruct (Hsame j) as [Em _]. rewrite Em. apply Hs1.
    + intros j k q. destruct (Hsame j) as [Ej _]. destruct (Hsame k) as [Ek _]. rewrite Ej, Ek. apply Hs2.
  - intros j Hj0. destruct (Hsame j) as (Em & _ & _ & _ & X). rewrite Em. apply Hid. now apply X.
Qed.

Lemma invB_step s l i s' : InvB s -> step l i s = Some s' -> InvB s'.
Proof.
  intros I H. pose proof I as [H1 H2 H5 _ Hf Hp Hr Hl _ [Hs1 Hs2] Hid].
  pose proof (B_inbox_lists s I) as Hi. pose proof (B_disp_lists s I) as Hd.
  destruct (step_Step _ _ _ _ H) as [l' p0 p f hl E Hmv|E _|q rest E Ei|q E Eh|q Hq|q]; clear H.
  - exact (invB_move s i l' p0 p f hl I E Hmv).
  - (* a client issues request number [counter s] *)
    set (q := counter s).
    assert (Hq : ph s q = PNone) by (apply Hf; lia).
    constructor; cbn [thrs counter pending inbox holder ready dispatched ph expd late].
    + intros j r. thread j i; [discriminate|]. intros Hh. rewrite upd_neither by congruence. now apply H1.
    + intros r j. rewrite upd_neither by congruence. intros Hr'. thread j i; [|now apply H2].
      apply H2 in Hr'. rewrite (hand_none_not_carrying s i I) in Hr'; [discriminate|now rewrite E].
    + intros j. thread j i; [discriminate|apply H5].
    + apply lists_kept; [exact Hi|congruence|discriminate].
    + intros r. rewrite upd_from by (exact Hq || discriminate). rewrite <- Hf. fold q. lia.
    + intros r. destruct (Nat.eq_dec r q) as [->|Hne].
      * rewrite !upd_same. split; [split; [discriminate|intros [X|X]; discriminate]|]. intros t [= <-]. now rewrite upd_same.
      * rewrite !upd_other by assumption. destruct (Hp r) as [Pa Pb]. split; [exact Pa|]. intros t Ht. thread t i; [|now apply Pb].
        apply Pb in Ht. rewrite (Hid i E) in Ht. discriminate.
    + intros r. rewrite upd_neither by congruence. apply Hr.
    + intros r. rewrite upd_neither by congruence. apply Hl.
    + apply lists_kept; [exact Hd|congruence|discriminate].
    + split.
      * intros j r. thread j i; [intros [= <-]; fold q; lia|]. intros Hm. apply Hs1 in Hm. lia.
      * intros j k r. thread j i; thread k i; intros Hj Hk; auto.
        -- injection Hj as <-. apply Hs1 in Hk. fold q in Hk. lia.
        -- injection Hk as <-. apply Hs1 in Hj. fold q in Hj. lia.
        -- now apply (Hs2 j k r).
    + intros j. thread j i; [discriminate|apply Hid].
  - (* S2: i takes the oldest frame *)
    rewrite Ei in Hi. assert (Hq : ph s q = PIn) by (apply Hi; now left).
    assert (Hn : hand (thrs s i) = None) by (apply (hand_none_not_carrying s i I); now rewrite E).
    constructor; cbn [thrs counter pending inbox holder ready dispatched ph expd late].
    + intros j r. thread j i; [intros [= <-]; now rewrite upd_same|].
      intros Hh. rewrite upd_neither by congruence. now apply H1.
    + intros r j. destruct (Nat.eq_dec r q) as [->|Hne]; [rewrite upd_same; intros [= <-]; now rewrite upd_same|].
      rewrite upd_other by assumption. intros Hr'. apply H2 in Hr'. thread j i; [congruence|exact Hr'].
    + intros j. thread j i; [discriminate|apply H5].
    + apply (lists_tail rest _ PIn q); [exact Hi|discriminate].
    + intros r. rewrite upd_neither by congruence. apply Hf.
    + intros r. rewrite !upd_neither by congruence. destruct (Hp r) as [Pa Pb]. split; [exact Pa|].
      intros t Ht. thread t i; now apply Pb.
    + intros r. rewrite upd_neither by congruence. apply Hr.
    + intros r. rewrite upd_neither by congruence. apply Hl.
    + apply lists_kept; [exact Hd|congruence|discriminate].
    + split; [intros j r; thread j i; apply Hs1|intros j k r; thread j i; thread k i; apply Hs2].
    + intros j. thread j i; [discriminate|apply Hid].
  - (* S5: i dispatches q *)
    destruct (H1 i q Eh) as [Hq _].
    assert (Hrq : ready s q = false) by (destruct (ready s q) eqn:X; [apply Hr in X; destruct X; congruence|reflexivity]).
    assert (Hlq : late s q = false) by (destruct (late s q) eqn:X; [apply Hl in X; destruct X; congruence|reflexivity]).
    destruct (pending s q) as [o|] eqn:Epd; [|apply (Hp q) in Epd; destruct Epd; congruence].
    constructor; cbn [thrs counter pending inbox holder ready dispatched ph expd late].
    + intros j r. thread j i; [discriminate|]. intros Hh. rewrite upd_neither by congruence. now apply H1.
    + intros r j. destruct (Nat.eq_dec j i) as [->|Hj].
      * rewrite upd_from by (exact Hq || discriminate). intros [Hne Hr']. apply H2 in Hr'. congruence.
      * rewrite upd_neither, upd_other by congruence. apply H2.
    + intros j. thread j i; [discriminate|apply H5].
    + apply lists_kept; [exact Hi|congruence|discriminate].
    + intros r. rewrite upd_neither by congruence. apply Hf.
    + intros r. destruct (Nat.eq_dec r q) as [->|Hne].
      * rewrite !upd_same. split; [split; auto|discriminate].
      * rewrite !upd_other by assumption. destruct (Hp r) as [Pa Pb]. split; [exact Pa|]. intros t Ht. thread t i; now apply Pb.
    + (* ready, unless the expiry has passed: then dropped as late *)
      intros r. destruct (Nat.eq_dec r q) as [->|Hne].
      * rewrite upd_same. destruct (expd s q); rewrite upd_same; [rewrite Hrq|rewrite Hlq]; intuition discriminate.
      * rewrite (upd_other (ph s)) by assumption. destruct (expd s q); rewrite ?upd_other by assumption; apply Hr.
    + intros r. destruct (Nat.eq_dec r q) as [->|Hne].
      * rewrite upd_same. destruct (expd s q); [now split|]. rewrite Hlq. discriminate.
      * rewrite (upd_other (ph s)) by assumption. destruct (expd s q); rewrite ?upd_other by assumption; apply Hl.
    + apply lists_app; [exact Hd|congruence].
    + split; [intros j r; thread j i; apply Hs1|intros j k r; thread j i; thread k i; apply Hs2].
    + intros j. thread j i; [discriminate|apply Hid].
  - (* the peer answers request q *)
    constructor; cbn [thrs counter pending inbox holder ready dispatched ph expd late]; auto.
    + intros j r Hh. rewrite upd_neither by congruence. now apply H1.
    + intros r j. rewrite upd_neither by congruence. apply H2.
    + apply lists_app; [exact Hi|congruence].
    + intros r. rewrite upd_neither by congruence. apply Hf.
    + intros r. rewrite !upd_neither by congruence. apply Hp.
    + intros r. rewrite upd_neither by congruence. apply Hr.
    + intros r. rewrite upd_neither by congruence. apply Hl.
    + apply lists_kept; [exact Hd|congruence|discriminate].
  - (* the clock passes the expiry of request q *)
    constructor; cbn [thrs counter pending inbox holder ready dispatched ph expd late]; auto.
    intros r Hlr. destruct (Hl r Hlr) as [A B]. split; [exact A|]. unfold upd. destruct (Nat.eqb r q); [reflexivity|exact B].
Qed.

Theorem invB_reach sv s : reach (init sv) s -> InvB s.
Proof. intros R. induction R; [apply invB_init|eauto using invB_step]. Qed.

(* inside wait(): begun, and neither returned nor given up *)
Definition in_loop (p : pc) : bool := match p with LoopTest | S1 | Asleep | S2 | S3 | S4 | S5 => true | _ => false end.

Lemma step_myseq s l i s' j : step l i s = Some s' ->
  myseq (thrs s' j) = myseq (thrs s j) \/ (l = LIssue /\ j = i /\ tpc (thrs s i) = Idle).
Proof.
  intros H. destruct (step_Step _ _ _ _ H) as [l' p0 p f hl _ Hmv| | | | |]; cbn [thrs moved]; auto; thread j i; auto.
  left. destruct (move_others s i l' p0 p f hl j Hmv) as [-> | ->]; [reflexivity|apply wake_data].
Qed.

Lemma step_leaves s l i s' j : step l i s = Some s' -> in_loop (tpc (thrs s' j)) = false ->
  tpc (thrs s' j) = tpc (thrs s j)
  \/ (tpc (thrs s j) = LoopTest /\ exists q, myseq (thrs s j) = Some q /\
      if ready s q then tpc (thrs s' j) = Returned else expd s q = true /\ tpc (thrs s' j) = TimedOut).
Proof.
  intros H. destruct (step_Step _ _ _ _ H) as [l' p0 p f hl E Hmv| | | | |]; cbn [thrs moved]; auto; thread j i; auto; try discriminate.
  - destruct Hmv as [|q Em Er|q Em Er Ex| | | | | | |]; try discriminate.
    + right. split; [exact E|]. exists q. now rewrite Er.
    + right. split; [exact E|]. exists q. now rewrite Er.
    + destruct (hand (thrs s i)); discriminate.
  - destruct (move_others s i l' p0 p f hl j Hmv) as [-> | ->]; [now left|].
    rewrite wake_pc. destruct (tpc (thrs s j)); auto; discriminate.
Qed.

Lemma step_ready s l i s' q : step l i s = Some s' -> ready s' q = ready s q \/ (ready s' q = true /\ expd s q = false).
Proof.
  intros H. destruct (step_Step _ _ _ _ H) as [| | |q0 _ _| |]; cbn [ready moved]; auto.
  destruct (pending s q0); [destruct (expd s q0) eqn:Ex|]; auto. unfold upd. destruct (Nat.eqb_spec q q0) as [->|]; auto.
Qed.
Lemma step_ready_mono s l i s' q : step l i s = Some s' -> ready s q = true -> ready s' q = true.
Proof. intros H Hr. destruct (step_ready s l i s' q H) as [->|[E _]]; assumption. Qed.
Lemma ready_needs_fresh s l i s' q : step l i s = Some s' -> expd s q = true -> ready s q = false -> ready s' q = false.
Proof. intros H He Hr. destruct (step_ready s l i s' q H) as [->|[_ X]]; [exact Hr|congruence]. Qed.
Lemma step_expd s l i s' : step l i s = Some s' -> expd s' = expd s \/ exists q, l = LExpire q /\ expd s' = upd (expd s) q true.
Proof. intros H. destruct (step_Step _ _ _ _ H); eauto. Qed.
Lemma step_expd_mono s l i s' q : step l i s = Some s' -> expd s q = true -> expd s' q = true.
Proof.
  intros H He. destruct (step_expd s l i s' H) as [->|(q0 & _ & ->)]; [exact He|]. unfold upd. destruct (Nat.eqb q q0); auto.
Qed.

Lemma can_move s w : InvB s -> in_loop (tpc (thrs s w)) = true ->
  (exists s', step LStep w s = Some s')
  \/ ((tpc (thrs s w) = Asleep \/ (tpc (thrs s w) = S2 /\ inbox s = [])) /\ step LStep w s = None /\ exists s', step LTimeout w s = Some s').
Proof.
  intros IB Hl. unfold step. destruct (tpc (thrs s w)) eqn:E; try discriminate Hl.
  - left. destruct (myseq (thrs s w)) as [q|]; [destruct (ready s q); [|destruct (expd s q)]|]; eexists; reflexivity.
  - left. destruct (holder s); eexists; reflexivity.
  - right. split; [now left|]. split; [reflexivity|eexists; reflexivity].
  - destruct (inbox s); [right|left; eexists; reflexivity]. split; [right; now split|]. split; [reflexivity|eexists; reflexivity].
  - left. eexists. reflexivity.
  - left. eexists. reflexivity.
  - left. pose proof (B_s5 s IB w E). destruct (hand (thrs s w)); [eexists; reflexivity|congruence].
Qed.

(* A waiter returns only with the reply to its own request. *)
Definition InvC (s : st) : Prop :=
  forall i, tpc (thrs s i) = Returned -> exists q, myseq (thrs s i) = Some q /\ ready s q = true.

Lemma invC_step s l i s' : InvC s -> step l i s = Some s' -> InvC s'.
Proof.
  intros I H j Hj.
  assert (X : exists q, myseq (thrs s j) = Some q /\ ready s q = true /\ tpc (thrs s j) <> Idle).
  { destruct (step_leaves s l i s' j H) as [E|(E & q & Em & Hq)]; [now rewrite Hj|..].
    - rewrite Hj in E. destruct (I j (eq_sym E)) as (q & Em & Er). exists q. rewrite <- E. now repeat split.
    - exists q. rewrite E. destruct (ready s q); [now repeat split|]. destruct Hq as [_ Hq]. congruence. }
  destruct X as (q & Em & Er & Hni). exists q. split; [|eapply step_ready_mono; eauto].
  destruct (step_myseq s l i s' j H) as [->|(_ & -> & E)]; [exact Em|contradiction].
Qed.

Theorem invC_reach sv s : reach (init sv) s -> InvC s.
Proof. intros R. induction R; [intros i; cbn; discriminate|eauto using invC_step]. Qed.

(* progress: with a reply in the stream and a thread inside the serving loop, a non-timeout step exists *)
Theorem progress s : InvA s -> InvB s -> inbox s <> [] -> (exists i, in_loop (tpc (thrs s i)) = true) ->
  exists j s', step LStep j s = Some s'.
Proof.
  intros IA IB Hin [i Hi].
  destruct (can_move s i IB Hi) as [[s' H]|([E|[_ E]] & _)]; [eauto| |contradiction].
  (* i sleeps: then somebody is due to notify and is not blocked *)
  destruct (A_wake s IA i E) as [h Hh].
  assert (Hl : in_loop (tpc (thrs s h)) = true) by (destruct (tpc (thrs s h)); discriminate || reflexivity).
  destruct (can_move s h IB Hl) as [[s' H]|([E'|[_ E']] & _)]; [eauto|rewrite E' in Hh; discriminate|contradiction].
Qed.

(* C14: the only places where a thread with a request, not yet out of wait(), can lack a program step *)
Theorem blocked_only_in_window s w q : InvA s -> InvB s ->
  myseq (thrs s w) = Some q -> tpc (thrs s w) <> Returned -> tpc (thrs s w) <> TimedOut -> step LStep w s = None ->
  (tpc (thrs s w) = S2 /\ inbox s = []) \/ (tpc (thrs s w) = Asleep /\ exists h, will_notify (tpc (thrs s h)) = true).
Proof.
  intros IA IB Hm Hnr Hnt Hb. destruct (in_loop (tpc (thrs s w))) eqn:Hl.
  - destruct (can_move s w IB Hl) as [[s' H]|([E|E] & _)]; [congruence|right|left; exact E].
    split; [exact E|]. exact (A_wake s IA w E).
  - destruct (tpc (thrs s w)) eqn:E; try discriminate Hl; try congruence. pose proof (B_idle s IB w E). congruence.
Qed.

(* Expiry. The clock only moves on; a wait gives up only after its own expiry with the cell not ready, which then
   never becomes ready. *)
Definition InvD (s : st) : Prop :=
  forall i, tpc (thrs s i) = TimedOut -> exists q, myseq (thrs s i) = Some q /\ expd s q = true /\ ready s q = false.

Lemma invD_step s l i s' : InvD s -> step l i s = Some s' -> InvD s'.
Proof.
  intros I H j Hj.
  assert (X : exists q, myseq (thrs s j) = Some q /\ expd s q = true /\ ready s q = false /\ tpc (thrs s j) <> Idle).
  { destruct (step_leaves s l i s' j H) as [E|(E & q & Em & Hq)]; [now rewrite Hj|..].
    - rewrite Hj in E. destruct (I j (eq_sym E)) as (q & Em & Ex & Er). exists q. rewrite <- E. now repeat split.
    - exists q. rewrite E. destruct (ready s q); [congruence|]. now repeat split. }
  destruct X as (q & Em & Ex & Er & Hni). exists q.
  split; [|split; [eapply step_expd_mono; eauto|eapply ready_needs_fresh; eauto]].
  destruct (step_myseq s l i s' j H) as [->|(_ & -> & E)]; [exact Em|contradiction].
Qed.
Theorem invD_reach sv s : reach (init sv) s -> InvD s.
Proof. intros R. induction R; [intros i; cbn; discriminate|eauto using invD_step]. Qed.
