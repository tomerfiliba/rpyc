(* the encoder the C04 theorems are about (model/Brine.v, ladder tables tied to the source) IS the published encoding *)
From Coq Require Import ZifyBool.
From V Require Import lib.Base lib.Decimal lib.Utf8 model.Ladder model.Brine model.PubCodec proofs.BrineP model.Channel.
Open Scope N_scope.

Lemma ladder_pub t0 t1 l1 l4 n :
  ladder_hdr [(LEq, 0, t0, LNone); (LEq, 1, t1 + 0, LNone); (LEq, 2, t1 + 1, LNone); (LEq, 3, t1 + 2, LNone); (LEq, 4, t1 + 3, LNone);
              (LLt, 256, l1, LI1); (LElse, 0, l4, LI4)] n = pub_count t0 t1 l1 l4 n.
Proof.
  unfold pub_count, ladder_hdr, lcmp_holds, lfield_bytes, pack_I1, pack_I4.
  destruct (N.eqb_spec n 0) as [->|H0]; [reflexivity|].
  destruct (N.leb_spec n 4) as [H4|H4].
  - assert (C : n = 1 \/ n = 2 \/ n = 3 \/ n = 4) by lia. destruct C as [-> | [-> | [-> | ->]]]; reflexivity.
  - replace (n =? 1) with false by lia. replace (n =? 2) with false by lia.
    replace (n =? 3) with false by lia. replace (n =? 4) with false by lia.
    destruct (n <? 256); [reflexivity|]. cbn [bind]. now destruct (n <? 4294967296).
Qed.
Lemma hdr_str_pub n : hdr_str n = pub_count 0x01 0x0a 0x0e 0x0f n.
Proof. exact (ladder_pub 0x01 0x0a 0x0e 0x0f n). Qed.
Lemma hdr_tup_pub n : hdr_tup n = pub_count 0x02 0x10 0x14 0x15 n.
Proof. exact (ladder_pub 0x02 0x10 0x14 0x15 n). Qed.
Lemma dump_bytes_pub b : dump_bytes b = pub_bytes b.
Proof. unfold dump_bytes, pub_bytes. now rewrite hdr_str_pub. Qed.
Lemma dump_int_pub P z : dump_int P z = pub_int (maxdigits P) z.
Proof.
  unfold dump_int, pub_int, is_imm, IMM_LO, IMM_HI, IMM_OFF. destruct ((-48 <=? z)%Z && (z <? 160)%Z); [reflexivity|].
  destruct (render (maxdigits P) z) as [t| | |]; cbn [bind]; try reflexivity.
  unfold hdr_int, int_ladder, ladder_hdr, lcmp_holds, lfield_bytes, pack_I1, pack_I4.
  destruct (N.ltb_spec (nlen t) 256); cbn [bind app]; [reflexivity|]. destruct (N.ltb_spec (nlen t) 4294967296); reflexivity.
Qed.

Lemma items_ext (f g : pyval -> result (list byte)) l : Forall (fun v => f v = g v) l ->
  (fix go (l : list pyval) : result (list byte) := match l with [] => Ok [] | y :: ys => do a <- f y; do b <- go ys; Ok (a ++ b) end) l =
  (fix go (l : list pyval) : result (list byte) := match l with [] => Ok [] | y :: ys => do a <- g y; do b <- go ys; Ok (a ++ b) end) l.
Proof. induction 1 as [|y ys Hy _ IH]; [reflexivity|]. now rewrite Hy, IH. Qed.

Theorem dump_is_published P : forall v, dump P v = pub_dump (sp P) (maxdigits P) v.
Proof.
  induction v as [| | |b|z|b|b|b|cps|l IH|l IH|a b c IHa IHb IHc|k] using pyval_ind'; cbn [dump pub_dump]; try reflexivity.
  - destruct b; reflexivity.
  - apply dump_int_pub.
  - apply dump_bytes_pub.
  - destruct (utf8_encode (sp P) cps); cbn [bind]; try reflexivity. now rewrite dump_bytes_pub.
  - now rewrite hdr_tup_pub, (items_ext _ _ l IH).
  - now rewrite hdr_tup_pub, (items_ext _ _ l IH).
  - now rewrite IHa, IHb, IHc.
Qed.

(* The strict published text codec (UTF-8 proper): what the tree emits equals it on every value whose text has no lone surrogate;
   lone surrogates are where a tree with surrogatepass (F1) leaves the published format.
   [nosurr] is BrineP's with the loop over the items written inline; C19's statements are over this one. *)
Fixpoint nosurr (v : pyval) : bool :=
  match v with
  | PStr cps => forallb (fun c => negb (is_surrogate c)) cps
  | PTuple l | PFset l => (fix go (l : list pyval) : bool := match l with [] => true | y :: ys => nosurr y && go ys end) l
  | PSlice a b c => nosurr a && nosurr b && nosurr c
  | _ => true
  end.
Lemma enc1_sp_irrelevant sp c : is_surrogate c = false -> enc1 sp c = enc1 false c.
Proof. intros H. unfold enc1. rewrite H. reflexivity. Qed.
Lemma utf8_encode_sp_irrelevant sp : forall cs, forallb (fun c => negb (is_surrogate c)) cs = true -> utf8_encode sp cs = utf8_encode false cs.
Proof.
  induction cs as [|c t IH]; intros H; [reflexivity|]. cbn [forallb] in H. apply andb_true_iff in H as [Hc Ht].
  apply negb_true_iff in Hc. cbn [utf8_encode]. rewrite (enc1_sp_irrelevant sp c Hc), (IH Ht). reflexivity.
Qed.
Lemma nosurr_items l : (fix go (l : list pyval) : bool := match l with [] => true | y :: ys => nosurr y && go ys end) l = true ->
  Forall (fun y => nosurr y = true) l.
Proof. induction l as [|y ys IH]; constructor; apply andb_true_iff in H as [Hy Hys]; auto. Qed.
Theorem pub_dump_strict sp maxd : forall v, nosurr v = true -> pub_dump sp maxd v = pub_dump false maxd v.
Proof.
  assert (children : forall l, Forall (fun v => nosurr v = true -> pub_dump sp maxd v = pub_dump false maxd v) l ->
            nosurr (PTuple l) = true -> Forall (fun v => pub_dump sp maxd v = pub_dump false maxd v) l).
  { intros l IH H. apply nosurr_items in H. rewrite Forall_forall in *. auto. }
  induction v as [| | |b|z|b|b|b|cps|l IH|l IH|a b c IHa IHb IHc|k] using pyval_ind'; intros H; cbn [pub_dump]; try reflexivity.
  - cbn [nosurr] in H. now rewrite (utf8_encode_sp_irrelevant sp cps H).
  - now rewrite (items_ext _ _ l (children l IH H)).
  - now rewrite (items_ext _ _ l (children l IH H)).
  - cbn [nosurr] in H. apply andb_true_iff in H as [H Hc]. apply andb_true_iff in H as [Ha Hb]. now rewrite (IHa Ha), (IHb Hb), (IHc Hc).
Qed.
Theorem dump_is_strictly_published P v : nosurr v = true -> dump P v = pub_dump false (maxdigits P) v.
Proof. intros H. rewrite dump_is_published. now apply pub_dump_strict. Qed.
(* and where it leaves it: one lone surrogate, encoded by a surrogatepass tree, refused by the strict codec *)
Lemma surrogate_witness : dump {| sp := true; maxdigits := 4300 |} (PStr [0xD800%N]) = Ok [x08; x0c; xed; xa0; x80]
  /\ pub_dump false 4300 (PStr [0xD800%N]) = Raise UnicodeError.
Proof. split; vm_compute; reflexivity. Qed.

Theorem frame_is_published zlib (P : cparams) cmp d : threshold P = 3000 -> flusher P = [b_of 10] ->
  frame zlib P cmp d = pub_frame zlib cmp d.
Proof.
  intros Ht Hf. unfold frame, frame_body, pub_frame, header, pack_I4. rewrite Ht, Hf.
  destruct (cmp && (3000 <? nlen d)); cbn [bind];
    match goal with |- context [nlen ?b <? 4294967296] => destruct (nlen b <? 4294967296) end; cbn [bind]; try reflexivity;
    now rewrite <- !app_assoc.
Qed.
