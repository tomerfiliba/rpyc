(* Proofs about the attribute-access policy model (model/Attr.v) and its tie to the functions and tables that
   tools/pygen/attrpolicy.py regenerates from rpyc/core/protocol.py, service.py, helpers.py (gen/Gen_attrpolicy.v). *)
From V Require Import lib.Base model.Attr.
From V Require gen.Gen_attrpolicy.   (* not imported: its check_attr/access_attr stay qualified *)
From Coq Require Import String.
Open Scope bool_scope.

Lemma tie_check_attr s perm pne n o : Gen_attrpolicy.check_attr s perm pne n o = Attr.check_attr s perm pne n o.
Proof. reflexivity. (* the same term up to the names of its local variables *) Qed.

Lemma check_attr_spec s perm pne n o :
  check_attr s perm pne n o =
  if negb (lookup_perm s perm) then Raise AttributeError
  else if spec_allowed s n && (negb (spec_twin s pne o) || has_name o) then Ok Plain
  else if spec_twin s pne o then Ok Twin
  else if spec_allowed s n then Ok Plain
  else Raise AttributeError.
Proof. reflexivity. Qed.
Lemma check_probes_spec s perm pne n o :
  check_probes s perm pne n o =
  if negb (lookup_perm s perm) then []
  else (if allow_exposed s && pne then [ProbeTwin] else []) ++ (if spec_allowed s n && spec_twin s pne o then [ProbeName] else []).
Proof. reflexivity. Qed.

(* the generated probe list is accumulated along the control flow of _check_attr: the same list on every path *)
Lemma tie_check_probes s perm pne n o : Gen_attrpolicy.check_probes s perm pne n o = Attr.check_probes s perm pne n o.
Proof.
  assert (same : forall (b : bool) (l : list probe), (if b then l else l) = l) by now intros [].
  unfold Gen_attrpolicy.check_probes, check_probes. destruct (lookup_perm s perm); [|reflexivity]. cbv zeta.
  now rewrite !same, negb_involutive.
Qed.
Lemma tie_access_attr nk hook s perm pne n o :
  Gen_attrpolicy.access_attr nk hook s perm pne n o = Attr.access_attr Gen_attrpolicy.decode_guarded nk hook s perm pne n o.
Proof. destruct nk, hook; reflexivity. Qed.

Lemma tie_routes_ok : routes_ok Gen_attrpolicy.handlers = true.
Proof. vm_compute. reflexivity. Qed.
Lemma tie_dispatch_covered :
  forallb (fun d => existsb (String.eqb (snd d)) (map fst Gen_attrpolicy.handlers)) Gen_attrpolicy.dispatch = true
  /\ List.length Gen_attrpolicy.dispatch = List.length Gen_attrpolicy.handlers.
Proof. split; vm_compute; reflexivity. Qed.
Lemma tie_classic_update : upd_of_pairs Gen_attrpolicy.classic_update = classic_upd.
Proof. reflexivity. Qed.
Definition Fgen : facts :=
  {| f_init_copies := Gen_attrpolicy.init_copies_defaults && Gen_attrpolicy.init_updates_own;
     f_on_connect_own := Gen_attrpolicy.on_connect_updates_own;
     f_requests_leave_config := writes_at_open_only Gen_attrpolicy.config_writes |}.
Lemma tie_facts : f_init_copies Fgen = true /\ f_on_connect_own Fgen = true /\ f_requests_leave_config Fgen = true.
Proof. repeat split; reflexivity. Qed.
(* the handlers that take an attribute name / that take none: exactly these, in source order *)
Lemma tie_handler_partition :
  handlers_with_routes Gen_attrpolicy.handlers = by_name_handlers /\
  handlers_without_routes Gen_attrpolicy.handlers = whole_object_handlers.
Proof. split; reflexivity. Qed.
Lemma tie_cmp_route :
  Gen_attrpolicy.cmp_ops = (if Gen_attrpolicy.cmp_ops_restricted then cmp_names else []).
Proof. reflexivity. Qed.
Lemma tie_pickle_gate : Gen_attrpolicy.pickle_gate = "allow_pickle"%string /\ Gen_attrpolicy.pickle_refusal = "ValueError"%string.
Proof. split; reflexivity. Qed.
(* class Service: no read hook, write and delete hooks that only raise AttributeError; nothing else under rpyc/ defines
   or binds a _rpyc_*attr hook except restricted()'s view *)
Lemma tie_service_hooks :
  Gen_attrpolicy.service_hooks = [("_rpyc_delattr", "deny:AttributeError"); ("_rpyc_setattr", "deny:AttributeError")]%string /\
  Gen_attrpolicy.service_denies_set = true /\ Gen_attrpolicy.service_denies_del = true /\
  Gen_attrpolicy.service_defines_get_hook = false.
Proof. repeat split. Qed.
Lemma tie_hook_definitions : Gen_attrpolicy.hook_definitions =
  [("rpyc/core/service.py:Service", "_rpyc_delattr"); ("rpyc/core/service.py:Service", "_rpyc_setattr");
   ("rpyc/utils/helpers.py:restricted.Restricted", "_rpyc_getattr"); ("rpyc/utils/helpers.py:restricted.Restricted", "_rpyc_setattr")]%string.
Proof. reflexivity. Qed.
(* the only writes to any configuration dict under rpyc/: the three in Connection.__init__ (own fresh dict) and
   SlaveService.on_connect (the connection it was given); DEFAULT_CONFIG is only defined and copied; the shared
   safe_attrs set is only defined and tested for membership *)
Lemma tie_config_writes : Gen_attrpolicy.config_writes =
  [("rpyc/core/protocol.py:Connection.__init__", "assign:DEFAULT_CONFIG.copy()");
   ("rpyc/core/protocol.py:Connection.__init__", "call:update:config");
   ("rpyc/core/protocol.py:Connection.__init__", "setitem:'connid'");
   ("rpyc/core/service.py:SlaveService.on_connect", "call:update:dict-literal")]%string.
Proof. reflexivity. Qed.
Lemma tie_default_config_refs : Gen_attrpolicy.default_config_refs =
  [("rpyc/core/protocol.py:<module>", "define"); ("rpyc/core/protocol.py:Connection.__init__", "copy")]%string.
Proof. reflexivity. Qed.
Lemma tie_safe_attrs_uses : Gen_attrpolicy.safe_attrs_uses =
  [("rpyc/core/protocol.py:<module>", "define"); ("rpyc/core/protocol.py:Connection._check_attr", "membership")]%string.
Proof. reflexivity. Qed.
Lemma tie_restricted :
  Gen_attrpolicy.restricted_hooks = [("_rpyc_getattr", "attrs", "getattr"); ("_rpyc_setattr", "wattrs", "setattr")]%string
  /\ Gen_attrpolicy.restricted_aliases = [("__getattr__", "_rpyc_getattr"); ("__setattr__", "_rpyc_setattr")]%string
  /\ Gen_attrpolicy.restricted_wattrs_default_attrs = true.
Proof. repeat split. Qed.
(* the 80 safe names are not repeated: the samples' configuration (C06.cfg_default) is built from the generated list itself *)
Lemma tie_default_config :
  Gen_attrpolicy.default_switches = {| allow_safe := true; allow_exposed := true; allow_public := false; allow_all := false;
                                       allow_getattr := true; allow_setattr := false; allow_delattr := false |}
  /\ Gen_attrpolicy.default_prefix = "exposed_"%string /\ List.length Gen_attrpolicy.default_safe_attrs = 80%nat.
Proof. repeat split. Qed.

Lemma access_is_spec g nk hook s perm pne n o :
  g = true \/ nk <> KBytesBad -> access_attr g nk hook s perm pne n o = spec_access nk hook s perm pne n o.
Proof.
  intros H.
  assert (str : access_attr g KStr hook s perm pne n o = spec_access KStr hook s perm pne n o).
  { cbn [access_attr spec_access]. destruct hook; [reflexivity|]. rewrite check_attr_spec.
    destruct (lookup_perm s perm), (spec_allowed s n), (spec_twin s pne o), (has_name o); reflexivity. }
  destruct nk.
  - exact str.
  - exact str.
  - destruct H as [->|H]; [reflexivity | now elim H].
  - reflexivity.
Qed.

(* on a tree that lets the decoding error escape, the table is missed exactly at names that are bytes but not UTF-8 *)
Lemma access_refuted hook s perm pne n o :
  access_attr false KBytesBad hook s perm pne n o = Raise UnicodeError
  /\ spec_access KBytesBad hook s perm pne n o = Raise TypeError.
Proof. split; reflexivity. Qed.

Lemma decide_is_spec g c perm p o :
  g = true \/ nkind_of p <> KBytesBad -> decide g c perm p o = spec_decide c perm p o.
Proof. intros H. unfold decide, spec_decide. now rewrite access_is_spec. Qed.

Lemma text_eqb_eq a : forall b, text_eqb a b = true <-> a = b.
Proof.
  induction a as [|x a IH]; intros [|y b]; simpl; split; intros H; try reflexivity; try discriminate.
  - apply andb_true_iff in H as [H1 H2]. apply N.eqb_eq in H1. apply IH in H2. now subst.
  - injection H as -> ->. rewrite N.eqb_refl. simpl. now apply IH.
Qed.
Lemma mem_In n l : mem n l = true <-> In n l.
Proof. apply existsb_eqb_in. intros y. apply text_eqb_eq. Qed.
Lemma nonempty_iff t : nonempty t = true <-> t <> [].
Proof. destruct t; simpl; split; intros H; try discriminate; try reflexivity; try congruence; try (now elim H). Qed.

Definition is_text (p : pyname) : Prop := nkind_of p = KStr \/ nkind_of p = KBytesOk.
(* "the name must be allowed (everything / exposed-prefix / safe-list / public, as enabled)" *)
Definition allowed (c : cfg) (n : text) : Prop :=
  allow_all (sw c) = true
  \/ (allow_exposed (sw c) = true /\ starts_with (exposed_prefix c) n = true)
  \/ (allow_safe (sw c) = true /\ In n (safe_attrs c))
  \/ (allow_public (sw c) = true /\ starts_with underscore n = false).
(* "or have an exposed-prefixed twin on the object" *)
Definition twin_on (c : cfg) (n : text) (o : obj) : Prop :=
  allow_exposed (sw c) = true /\ exposed_prefix c <> [] /\ In (exposed_prefix c ++ n) (attrs o).

Lemma spec_allowed_iff c n : spec_allowed (sw c) (nview_of c n) = true <-> allowed c n.
Proof.
  unfold spec_allowed, allowed, nview_of; simpl.
  rewrite !orb_true_iff, !andb_true_iff, negb_true_iff, mem_In. tauto.
Qed.
Lemma spec_twin_iff c n o : spec_twin (sw c) (nonempty (exposed_prefix c)) (oview_of c n o) = true <-> twin_on c n o.
Proof.
  unfold spec_twin, twin_on, oview_of, has; simpl.
  rewrite !andb_true_iff, mem_In, nonempty_iff. tauto.
Qed.

Lemma spec_decide_text c perm p o : hook_for o perm = false -> is_text p ->
  match spec_decide c perm p o with
  | Ok (ViaDefault final) =>
      lookup_perm (sw c) perm = true /\
      ((final = text_of p /\ allowed c (text_of p)) \/ (final = exposed_prefix c ++ text_of p /\ twin_on c (text_of p) o))
  | Raise AttributeError => ~ (lookup_perm (sw c) perm = true /\ (allowed c (text_of p) \/ twin_on c (text_of p) o))
  | _ => False
  end.
Proof.
  intros Hh Ht. pose proof (spec_allowed_iff c (text_of p)) as HA. pose proof (spec_twin_iff c (text_of p) o) as HT.
  assert (E : forall (x y : result reach), match nkind_of p with KOther | KBytesBad => x | _ => y end = y).
  { intros x y. now destruct Ht as [-> | ->]. }
  unfold spec_decide, spec_access. rewrite E, Hh.
  destruct (lookup_perm (sw c) perm), (spec_allowed (sw c) (nview_of c (text_of p))),
    (spec_twin (sw c) (nonempty (exposed_prefix c)) (oview_of c (text_of p) o)), (has_name (oview_of c (text_of p) o)); cbn;
    intuition discriminate.
Qed.
Lemma spec_not_text c perm p o : ~ is_text p -> spec_decide c perm p o = Raise TypeError.
Proof.
  unfold is_text, spec_decide, spec_access. intros H. destruct (nkind_of p); try reflexivity; elim H; auto.
Qed.
Lemma spec_sound c perm p o final :
  hook_for o perm = false -> spec_decide c perm p o = Ok (ViaDefault final) ->
  is_text p /\ lookup_perm (sw c) perm = true /\
  ((final = text_of p /\ allowed c (text_of p)) \/ (final = exposed_prefix c ++ text_of p /\ twin_on c (text_of p) o)).
Proof.
  intros Hh D.
  assert (Ht : is_text p).
  { unfold spec_decide, spec_access, is_text in *. destruct (nkind_of p); auto; discriminate. }
  pose proof (spec_decide_text c perm p o Hh Ht) as K. rewrite D in K. exact (conj Ht K).
Qed.
Lemma spec_complete c perm p o :
  hook_for o perm = false -> is_text p -> lookup_perm (sw c) perm = true ->
  allowed c (text_of p) \/ twin_on c (text_of p) o ->
  exists final, spec_decide c perm p o = Ok (ViaDefault final).
Proof.
  intros Hh Ht Hp H. pose proof (spec_decide_text c perm p o Hh Ht) as K.
  destruct (spec_decide c perm p o) as [[?|f]|[]| |]; try contradiction; [eauto | elim K; auto].
Qed.
Lemma spec_denied c perm p o :
  hook_for o perm = false -> is_text p ->
  ~ (lookup_perm (sw c) perm = true /\ (allowed c (text_of p) \/ twin_on c (text_of p) o)) ->
  spec_decide c perm p o = Raise AttributeError.
Proof.
  intros Hh Ht H. pose proof (spec_decide_text c perm p o Hh Ht) as K.
  destruct (spec_decide c perm p o) as [[?|f]|[]| |]; try contradiction; [|reflexivity].
  elim H. destruct K as (Hp & [[_ A]|[_ A]]); auto.
Qed.

Lemma probes_only_twin_when_refused s perm pne n o e :
  check_attr s perm pne n o = Raise e -> forall q, In q (check_probes s perm pne n o) -> q = ProbeTwin.
Proof.
  rewrite check_attr_spec, check_probes_spec. destruct (lookup_perm s perm); [|intros _ q []]. cbn [negb].
  destruct (spec_allowed s n).
  - destruct (spec_twin s pne o), (has_name o); discriminate.
  - intros _ q Hq. cbn [andb] in Hq. rewrite app_nil_r in Hq. destruct (allow_exposed s && pne); [|destruct Hq].
    destruct Hq as [<-|[]]. reflexivity.
Qed.

Lemma handle_decision g c perm p o : o_decision (handle g c perm p o) = decide g c perm p o.
Proof.
  unfold handle. destruct (decide g c perm p o) as [[n|final]| | |]; try reflexivity. now destruct (perform perm final o) as [[r t] o'].
Qed.

Lemma denied_no_effect g c perm p o e :
  o_decision (handle g c perm p o) = Raise e ->
  o_result (handle g c perm p o) = Raise e /\ o_touch (handle g c perm p o) = [] /\ o_obj (handle g c perm p o) = o
  /\ forall x, In x (o_trace (handle g c perm p o)) -> x = EGet (exposed_prefix c ++ text_of p).
Proof.
  rewrite handle_decision. intros D. unfold handle. rewrite D. cbn [o_result o_touch o_obj o_trace]. repeat split.
  unfold decide, access_attr in D. unfold probes_of. intros x Hx.
  destruct (nkind_of p), (hook_for o perm); try contradiction;
    (destruct (check_attr (sw c) perm (nonempty (exposed_prefix c)) (nview_of c (text_of p)) (oview_of c (text_of p) o)) as [t|e'| |] eqn:C;
     [destruct t; discriminate| |discriminate..]; apply in_map_iff in Hx as (q & <- & Hq);
     now rewrite (probes_only_twin_when_refused _ _ _ _ _ _ C q Hq)).
Qed.

Lemma granted_touches_final g c perm p o final :
  o_decision (handle g c perm p o) = Ok (ViaDefault final) ->
  o_touch (handle g c perm p o) = [match perm with PGet => EGet final | PSet => ESet final | PDel => EDel final end].
Proof. rewrite handle_decision. intros D. unfold handle. rewrite D. now destruct perm. Qed.

Lemma hook_overrides g c perm p o :
  hook_for o perm = true -> is_text p -> decide g c perm p o = Ok (ViaHook (text_of p)).
Proof. intros Hh [E|E]; unfold decide, access_attr; rewrite Hh, E; reflexivity. Qed.

Lemma if_mem {A} n l (a b : A) :
  (In n l -> (if mem n l then a else b) = a) /\ (~ In n l -> (if mem n l then a else b) = b).
Proof. rewrite <- mem_In. destruct (mem n l); split; intros H; try reflexivity; [now elim H | discriminate]. Qed.
Lemma restricted_get_exact r n :
  (In n (r_attrs r) -> restricted_get r n = perform PGet n (r_under r)) /\
  (~ In n (r_attrs r) -> restricted_get r n = (Raise AttributeError, [], r_under r)).
Proof. apply if_mem. Qed.
Lemma restricted_set_exact r n :
  (In n (r_wlist r) -> restricted_set r n = perform PSet n (r_under r)) /\
  (~ In n (r_wlist r) -> restricted_set r n = (Raise AttributeError, [], r_under r)).
Proof. apply if_mem. Qed.
(* through a connection: whatever the configuration, a restricted view is read at exactly its listed names,
   written at exactly its writable names, never deleted from *)
Lemma restricted_via_connection g c p r : is_text p ->
  handle_restricted g c PGet p r = restricted_get r (text_of p) /\
  handle_restricted g c PSet p r = restricted_set r (text_of p) /\
  (exists tr, handle_restricted g c PDel p r = (Raise AttributeError, tr, r_under r) /\ forall e, In e tr -> is_write e = false).
Proof.
  assert (reads : forall prs e,
    In e (flat_map (fun q => match probe_ev c (text_of p) q with EGet x => r_probe_ev r x | _ => [] end) prs) -> is_write e = false).
  { intros prs e He. apply in_flat_map in He as (q & _ & He). destruct (probe_ev c (text_of p) q) as [x| |]; try contradiction.
    unfold r_probe_ev in He. destruct (mem x (r_attrs r)); [destruct He as [<-|[]]; reflexivity | contradiction]. }
  intros [E|E]; unfold handle_restricted; rewrite E;
    (split; [reflexivity|split; [reflexivity|eexists; split; [reflexivity|apply reads]]]).
Qed.
Lemma restricted_underlying_changes_only_by_listed_write g c perm p r :
  snd (handle_restricted g c perm p r) <> r_under r -> perm = PSet /\ In (text_of p) (r_wlist r).
Proof.
  unfold handle_restricted. destruct (nkind_of p); simpl; try (intros H; now elim H);
    (destruct perm; simpl; try (intros H; now elim H);
     [unfold restricted_get; destruct (mem (text_of p) (r_attrs r)); simpl; intros H; now elim H |
      unfold restricted_set; destruct (mem (text_of p) (r_wlist r)) eqn:M; simpl; intros H; [split; [reflexivity|now apply mem_In] | now elim H]]).
Qed.

(* a Service instance denies writes and deletes on itself whatever the configuration; reads follow the configuration *)
Lemma service_root g c p l : is_text p ->
  handle_service true true g c PSet p l = (Raise AttributeError, [], svc_obj l) /\
  handle_service true true g c PDel p l = (Raise AttributeError, [], svc_obj l) /\
  handle_service true true g c PGet p l =
    (o_result (handle g c PGet p (svc_obj l)), o_trace (handle g c PGet p (svc_obj l)), o_obj (handle g c PGet p (svc_obj l))) /\
  hook_for (svc_obj l) PGet = false.
Proof. intros [E|E]; unfold handle_service; rewrite E; repeat split. Qed.
Lemma service_root_unchanged ds dd g c perm p l : snd (handle_service ds dd g c perm p l) = svc_obj l.
Proof.
  unfold handle_service. destruct (nkind_of p); try reflexivity;
    (destruct perm; [|destruct ds; reflexivity|destruct dd; reflexivity]; simpl;
     unfold handle; destruct (decide g c PGet p (svc_obj l)) as [[n|f]| | |]; reflexivity).
Qed.

Lemma eqb3_eq a a' b b' c c' : String.eqb a a' && String.eqb b b' && String.eqb c c' = true -> a = a' /\ b = b' /\ c = c'.
Proof. rewrite !andb_true_iff, !String.eqb_eq. tauto. Qed.
Lemma route_perm_sound r p : route_perm r = Some p ->
  exists t, r = match p with
      | PGet => RAccess t "_rpyc_getattr" "allow_getattr" "getattr"
      | PSet => RAccess t "_rpyc_setattr" "allow_setattr" "setattr"
      | PDel => RAccess t "_rpyc_delattr" "allow_delattr" "delattr"
      end%string.
Proof.
  assert (first_true : forall b1 b2 b3 : bool,
    (if b1 then Some PGet else if b2 then Some PSet else if b3 then Some PDel else None) = Some p ->
    (b1 = true /\ p = PGet) \/ (b2 = true /\ p = PSet) \/ (b3 = true /\ p = PDel)).
  { intros [] [] []; intros [= <-]; auto. }
  destruct r as [t o q d| |]; try discriminate. intros H.
  apply first_true in H as [[H ->]|[[H ->]|[H ->]]]; apply eqb3_eq in H as (-> & -> & ->); now exists t.
Qed.
Lemma perms_eqb_sound a : forall b, perms_eqb a b = true -> a = b /\ Forall (fun x => x <> None) a.
Proof.
  induction a as [|x a IH]; intros [|y b]; simpl; intros H; try discriminate; [split; [reflexivity|constructor]|].
  apply andb_true_iff in H as [H1 H2]. destruct (IH _ H2) as [-> F].
  destruct x as [[]|], y as [[]|]; simpl in H1; try discriminate; (split; [reflexivity | constructor; [discriminate|exact F]]).
Qed.
Lemma targets_eqb_sound a : forall b, targets_eqb a b = true -> a = b.
Proof.
  induction a as [|x a IH]; intros [|y b]; simpl; intros H; try discriminate; [reflexivity|].
  apply andb_true_iff in H as [H1 H2]. rewrite (IH _ H2).
  destruct x as [x|], y as [y|]; simpl in H1; try discriminate. apply Bool.eqb_prop in H1. now subst.
Qed.
Lemma routes_checked (t : htable) : routes_ok t = true -> forall h rs, In (h, rs) t ->
  handler_perms t h = expected_perms h /\ Forall (fun x => x <> None) (handler_perms t h) /\
  handler_targets t h = expected_targets h.
Proof.
  unfold routes_ok. intros H h rs Hin. rewrite forallb_forall in H. specialize (H _ Hin). simpl in H.
  apply andb_true_iff in H as [H1 H2]. destruct (perms_eqb_sound _ _ H1) as [A B].
  repeat split; auto. now apply targets_eqb_sound.
Qed.

(* the cmp route: served names when the accessor is restricted to the comparison protocol; and, when it is not, a method
   reached by name although the object's own hook -- which decides on every other route -- was never asked *)
Lemma cmp_restricted_only_comparisons g c p ty final :
  decide_cmp true g c p ty = Ok (ViaDefault final) -> In final (map text_of_string cmp_names).
Proof.
  unfold decide_cmp. destruct (decide g c PGet p ty) as [[n|f]| | |]; try discriminate.
  destruct (mem f (map text_of_string cmp_names)) eqn:M; cbn [andb negb]; try discriminate.
  intros [= <-]. now apply mem_In.
Qed.
Lemma cmp_hook_never_asked r g c p ty : decide_cmp r g c p ty = Ok (ViaHook (text_of p)) -> hook_get ty = true.
Proof.
  unfold decide_cmp, decide, access_attr. destruct (hook_for ty PGet) eqn:Hk; [intros _; exact Hk|].
  destruct (nkind_of p); simpl; try discriminate;
    destruct (check_attr (sw c) PGet (nonempty (exposed_prefix c)) (nview_of c (text_of p)) (oview_of c (text_of p) ty)) as [[]| | |];
    simpl; try discriminate;
    match goal with |- context [if ?b then _ else _] => destruct b end; discriminate.
Qed.

Fixpoint opens_of (h : list hop) : list (upd * svc) :=
  match h with [] => [] | HOpen u s :: r => (u, s) :: opens_of r | _ :: r => opens_of r end.
Lemma nth_open_opens h : forall i, nth_open h i = nth_error (opens_of h) i.
Proof.
  induction h as [|op h IH]; intros i; simpl; [now destruct i|].
  destruct op; simpl; try apply IH. destruct i; simpl; [reflexivity|apply IH].
Qed.
Lemma opens_of_app a b : opens_of (a ++ b) = opens_of a ++ opens_of b.
Proof. induction a as [|op a IH]; simpl; [reflexivity|]. destruct op; simpl; now rewrite IH. Qed.

Lemma upd_nth_last {A} (l : list A) x f : upd_nth (List.length l) f (l ++ [x]) = l ++ [f x].
Proof. induction l; simpl; [reflexivity|]. now rewrite IHl. Qed.
Lemma map_cell_upd_nth f i l : (forall k, cell (f k) = cell k) -> map cell (upd_nth i f l) = map cell l.
Proof. intros Hf. revert i. induction l as [|k l IH]; intros [|i]; simpl; rewrite ?Hf, ?IH; reflexivity. Qed.

Section Isolation.
  Variable F : facts.
  Variable d : cfg.
  Hypothesis Hcopy : f_init_copies F = true.
  Hypothesis Hown : f_on_connect_own F = true.
  Hypothesis Hreq : f_requests_leave_config F = true.
  Definition own (x : upd * svc) : cfg := own_cfg d (fst x) (snd x).
  (* cell 0 holds the untouched default, cell k+1 the own configuration of the k-th open, and connection k points at cell k+1 *)
  Definition Inv (w : world) (opens : list (upd * svc)) : Prop :=
    heap w = d :: map own opens /\ map cell (conns w) = seq 1 (List.length opens).

  Lemma step_inv w opens op : Inv w opens -> Inv (step F w op) (opens ++ opens_of [op]).
  Proof.
    intros [Hh Hc]. destruct op as [u s|i|i]; simpl; try (rewrite app_nil_r).
    - rewrite Hcopy, Hown. rewrite Hh. simpl nth.
      assert (L : List.length (d :: map own opens) = S (List.length opens)) by (simpl; now rewrite map_length).
      split.
      + cbn [heap]. destruct s; rewrite !upd_nth_last, map_app; reflexivity.
      + cbn [conns]. rewrite map_app, Hc, app_length. cbn [map cell]. rewrite L, Nat.add_1_r, seq_S. reflexivity.
    - split; [exact Hh|]. simpl. now rewrite map_cell_upd_nth.
    - rewrite Hreq. split; assumption.
  Qed.
  Lemma run_inv h : forall w opens, Inv w opens -> Inv (fold_left (step F) h w) (opens ++ opens_of h).
  Proof.
    induction h as [|op h IH]; intros w opens H; simpl; [now rewrite app_nil_r|].
    specialize (IH _ _ (step_inv _ _ op H)). rewrite <- app_assoc in IH.
    replace (opens_of [op] ++ opens_of h) with (opens_of (op :: h)) in IH by (destruct op; reflexivity). exact IH.
  Qed.
  Lemma inv_cfg_of w opens i : Inv w opens -> cfg_of w i = option_map own (nth_error opens i).
  Proof.
    intros [Hh Hc]. unfold cfg_of.
    assert (E : option_map cell (nth_error (conns w) i) = nth_error (seq 1 (List.length opens)) i).
    { rewrite <- Hc. clear. revert i. induction (conns w); intros [|i]; simpl; auto. }
    destruct (nth_error (conns w) i) as [k|] eqn:K; simpl in E.
    - assert (Hi : (i < List.length opens)%nat).
      { rewrite <- (seq_length (List.length opens) 1). apply nth_error_Some. now rewrite <- E. }
      rewrite (nth_error_nth' _ 0%nat) in E by (now rewrite seq_length). rewrite seq_nth in E by exact Hi.
      injection E as ->. rewrite Hh. simpl. apply nth_error_map.
    - symmetry in E. apply nth_error_None in E. rewrite seq_length in E.
      destruct (nth_error opens i) eqn:N; [|reflexivity]. apply nth_error_None in E. congruence.
  Qed.
  Lemma cfg_of_run h i : cfg_of (run F d h) i = option_map own (nth_error (opens_of h) i).
  Proof.
    unfold run. apply (inv_cfg_of _ _ i (run_inv h (init_world d) [] (conj eq_refl eq_refl))).
  Qed.
  Lemma default_of_run h : default_of (run F d h) = d.
  Proof.
    unfold run, default_of. destruct (run_inv h (init_world d) [] (conj eq_refl eq_refl)) as [-> _]. reflexivity.
  Qed.

  (* a connection's configuration is what it was given at open (plus its own on_connect), whatever else happened *)
  Theorem isolation h i u s : nth_open h i = Some (u, s) -> cfg_of (run F d h) i = Some (own_cfg d u s).
  Proof. intros H. rewrite cfg_of_run, <- nth_open_opens, H. reflexivity. Qed.
  (* and no later operation on any connection -- open, classic on_connect, close, request -- changes it *)
  Theorem isolation_frame h op j c : cfg_of (run F d h) j = Some c -> cfg_of (step F (run F d h) op) j = Some c.
  Proof.
    intros H. change (step F (run F d h) op) with (fold_left (step F) [op] (run F d h)).
    unfold run in *. rewrite <- fold_left_app. fold (run F d (h ++ [op])). fold (run F d h) in H.
    rewrite cfg_of_run in *. rewrite opens_of_app.
    destruct (nth_error (opens_of h) j) eqn:N; simpl in H; [|discriminate].
    rewrite nth_error_app1 by (apply nth_error_Some; congruence). now rewrite N.
  Qed.
End Isolation.

(* had __init__ shared the default dict, or on_connect written to a shared dict, or request-time code written to a
   configuration dict, isolation would fail *)
Definition d0 : cfg := dummy_cfg.
Definition d1 : cfg := apply_upd [SetSw KGetattr true] dummy_cfg.
Lemma isolation_refuted_shared_default F : f_init_copies F = false ->
  exists h i u s, nth_open h i = Some (u, s) /\ cfg_of (run F d0 h) i <> Some (own_cfg d0 u s).
Proof.
  intros H. exists [HOpen [] SvcPlain; HOpen [SetSw KAll true] SvcPlain], 0%nat, [], SvcPlain.
  split; [reflexivity|]. destruct F as [a b r]. simpl in H. subst a. destruct b, r; vm_compute; discriminate.
Qed.
Lemma isolation_refuted_foreign_on_connect F : f_on_connect_own F = false ->
  exists h i u s, nth_open h i = Some (u, s) /\ cfg_of (run F d0 h) i <> Some (own_cfg d0 u s).
Proof.
  intros H. destruct F as [a b r]. simpl in H. subst b. destruct a.
  - exists [HOpen [] SvcClassic; HOpen [] SvcPlain], 1%nat, [], SvcPlain. split; [reflexivity|]. destruct r; vm_compute; discriminate.
  - exists [HOpen [] SvcPlain; HOpen [] SvcClassic], 0%nat, [], SvcPlain. split; [reflexivity|]. destruct r; vm_compute; discriminate.
Qed.
Lemma isolation_refuted_request_writes F : f_requests_leave_config F = false ->
  exists h i u s, nth_open h i = Some (u, s) /\ cfg_of (run F d1 h) i <> Some (own_cfg d1 u s).
Proof.
  intros H. exists [HOpen [] SvcPlain; HOpen [] SvcPlain; HAccess 1], 0%nat, [], SvcPlain.
  split; [reflexivity|]. destruct F as [a b r]. simpl in H. subst r. destruct a, b; vm_compute; discriminate.
Qed.

(* the generated _access_attr applied to what it reads of a concrete configuration, name and object *)
Definition decide_gen (c : cfg) (perm : permkey) (p : pyname) (o : obj) : result via :=
  via_of c (text_of p)
    (Gen_attrpolicy.access_attr (nkind_of p) (hook_for o perm) (sw c) perm (nonempty (exposed_prefix c))
                                (nview_of c (text_of p)) (oview_of c (text_of p) o)).
Lemma decide_gen_eq c perm p o : decide_gen c perm p o = decide Gen_attrpolicy.decode_guarded c perm p o.
Proof. unfold decide_gen, decide. now rewrite tie_access_attr. Qed.
Lemma is_text_not_bad p : is_text p -> nkind_of p <> KBytesBad.
Proof. intros [E|E]; rewrite E; discriminate. Qed.
Lemma decide_gen_text c perm p o : is_text p -> decide_gen c perm p o = spec_decide c perm p o.
Proof. intros Ht. rewrite decide_gen_eq. apply decide_is_spec. right. now apply is_text_not_bad. Qed.
