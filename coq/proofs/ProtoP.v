(* model/Proto.v. Serving: under the guards of the tree one request gets exactly one frame bearing its number, so over a stream each
   number is answered as often as it was asked.  Requester: registered numbers are distinct and below the counter, so a number that
   has been answered is never known again. *)
From V Require Import lib.Base model.Proto.

Definition fully_guarded (P : dparams) : bool :=
  unpack_in_try P && unbox_in_try P && handler_in_try P && reply_encode_guarded P && exc_encode_guarded P.

(* every outcome is answerable except an exception class the configuration marks for local propagation, on a tree that re-raises those *)
Definition answerable (P : dparams) (o : outcome) : bool := match o with ORaiseMarked => negb (reraises_marked P) | _ => true end.

Theorem serve_exactly_one P seq o : fully_guarded P = true -> answerable P o = true ->
  let r := serve_request P seq o in
  length (sent r) = 1%nat /\ (forall f, In f (sent r) -> frame_seq f = seq) /\ invoked r <= 1 /\ crashed r = false.
Proof.
  unfold fully_guarded, serve_request. intros [[[[-> ->]%andb_prop ->]%andb_prop ->]%andb_prop ->]%andb_prop Ha.
  destruct o as [| | |[]|[]|]; cbn in *; try (apply negb_true_iff in Ha; rewrite Ha); cbn; repeat split; auto; intros f [<-|[]]; reflexivity.
Qed.

Theorem marked_exception_unanswered P seq : handler_in_try P = true -> reraises_marked P = true ->
  let r := serve_request P seq ORaiseMarked in sent r = [] /\ crashed r = true /\ invoked r = 1%nat.
Proof. intros H1 H2. unfold serve_request. rewrite H1, H2. repeat split. Qed.

(* F2: a result the serializer rejects while encoding, with the reply built outside any guard *)
Theorem unencodable_result_refuted P seq : reply_encode_guarded P = false ->
  sent (serve_request P seq (OValue false)) = [] /\ crashed (serve_request P seq (OValue false)) = true.
Proof. intros H. unfold serve_request. rewrite H. split; reflexivity. Qed.
Theorem unencodable_exception_refuted P seq : handler_in_try P = true -> exc_encode_guarded P = false ->
  sent (serve_request P seq (ORaise false)) = [] /\ crashed (serve_request P seq (ORaise false)) = true.
Proof. intros H1 H2. unfold serve_request. rewrite H1, H2. split; reflexivity. Qed.

Fixpoint serve_all (P : dparams) (reqs : list (Z * outcome)) : list served :=
  match reqs with [] => [] | (q, o) :: t => serve_request P q o :: serve_all P t end.
Definition responses_for (q : Z) (l : list served) : nat :=
  length (filter (fun f => Z.eqb (frame_seq f) q) (concat (map sent l))).

Lemma responses_cons q r l : responses_for q (r :: l) = (length (filter (fun f => Z.eqb (frame_seq f) q) (sent r)) + responses_for q l)%nat.
Proof. unfold responses_for. cbn [map concat]. now rewrite filter_app, app_length. Qed.

Lemma responses_count P reqs q : fully_guarded P = true -> Forall (fun qo => answerable P (snd qo) = true) reqs ->
  responses_for q (serve_all P reqs) = count_occ Z.eq_dec (map fst reqs) q.
Proof.
  intros HP H. induction H as [|[q0 o0] t Ha _ IH]; [reflexivity|]. cbn [serve_all map fst count_occ]. rewrite responses_cons, IH.
  destruct (serve_exactly_one P q0 o0 HP Ha) as (Hlen & Hseq & _).
  destruct (sent (serve_request P q0 o0)) as [|f [|g r]]; try discriminate Hlen.
  cbn [filter]. rewrite (Hseq f (or_introl eq_refl)). destruct (Z.eq_dec q0 q) as [->|Hne]; [now rewrite Z.eqb_refl|].
  apply Z.eqb_neq in Hne. now rewrite Hne.
Qed.

Theorem stream_exactly_one P reqs : fully_guarded P = true -> NoDup (map fst reqs) ->
  Forall (fun qo => answerable P (snd qo) = true) reqs ->
  forall q o, In (q, o) reqs -> responses_for q (serve_all P reqs) = 1%nat
  /\ Forall (fun r => crashed r = false /\ invoked r <= 1) (serve_all P reqs).
Proof.
  intros HP Hnd Hans q o Hin. split.
  - rewrite (responses_count P reqs q HP Hans). apply NoDup_count_occ'; [exact Hnd|]. apply (in_map fst _ _ Hin).
  - clear -HP Hans. induction Hans as [|[q0 o0] t Ha _ IH]; constructor; [|exact IH].
    destruct (serve_exactly_one P q0 o0 HP Ha) as (_ & _ & Hinv & Hcr). now split.
Qed.

Definition keys (s : req_state) : list Z := map fst (callbacks s).
Definition InvR (s : req_state) : Prop :=
  NoDup (keys s) /\ forall q, In q (keys s) -> (q < next_seq s)%Z.

Lemma remove_key_keys k l : forall x, In x (map fst (remove_key k l)) <-> (In x (map fst l) /\ x <> k).
Proof.
  induction l as [|[a b] t IH]; intros x; cbn; [tauto|]. specialize (IH x).
  destruct (Z.eqb_spec a k); cbn; [subst|]; intuition congruence.
Qed.
Lemma remove_key_nodup k l : NoDup (map fst l) -> NoDup (map fst (remove_key k l)).
Proof.
  induction l as [|[a b] t IH]; cbn; intros H; [constructor|]. inversion H; subst.
  destruct (Z.eqb a k); cbn; [auto|]. constructor; [|auto]. intros X%remove_key_keys. tauto.
Qed.
Lemma find_key_remove q k l : find_key q (remove_key k l) = if Z.eqb q k then None else find_key q l.
Proof.
  induction l as [|[a b] t IH]; cbn; [now destruct (Z.eqb q k)|].
  destruct (Z.eqb_spec a k) as [->|Hk]; cbn; rewrite IH; destruct (Z.eqb_spec q k) as [->|Hq]; try reflexivity.
  - destruct (Z.eqb_spec k q); [congruence|reflexivity].
  - destruct (Z.eqb_spec a k); [contradiction|reflexivity].
Qed.
Lemma find_key_in k l cb : find_key k l = Some cb -> In (k, cb) l.
Proof. induction l as [|[a b] t IH]; cbn; [discriminate|]. destruct (Z.eqb_spec a k); [intros [= ->]; subst; now left|auto]. Qed.
Lemma find_key_none k l : find_key k l = None -> ~ In k (map fst l).
Proof. induction l as [|[a b] t IH]; cbn; [tauto|]. destruct (Z.eqb_spec a k); [discriminate|intros H [X|X]; [congruence|now apply IH]]. Qed.

Lemma req_step_cases s e : let s' := req_step s e in
  (exists cb (ok : bool), next_seq s' = (next_seq s + 1)%Z /\ callbacks s' = if ok then (next_seq s, cb) :: callbacks s else callbacks s)
  \/ s' = s
  \/ (exists q, next_seq s' = next_seq s /\ callbacks s' = remove_key q (callbacks s)).
Proof.
  destruct e as [cb ok|q b|q [|]]; cbn; [left; now exists cb, ok| | |auto].
  all: destruct (find_key q (callbacks s)); [right; right; now exists q|auto].
Qed.

Lemma invR_step s e : InvR s -> InvR (req_step s e).
Proof.
  intros [Hn Hlt]. unfold InvR, keys. destruct (req_step_cases s e) as [(cb & [|] & -> & ->)|[->|(q & -> & ->)]]; cbn [map fst].
  - split; [constructor; [intros X%Hlt; lia|exact Hn]|]. intros q [<-|X%Hlt]; lia.
  - split; [exact Hn|]. intros q X%Hlt. lia.
  - now split.
  - split; [now apply remove_key_nodup|]. intros x [X _]%remove_key_keys. now apply Hlt.
Qed.
Theorem invR_run evs : InvR (fold_left req_step evs init_req).
Proof.
  assert (G : forall s, InvR s -> InvR (fold_left req_step evs s)).
  { induction evs as [|e t IH]; intros s H; cbn; [exact H|]. apply IH. now apply invR_step. }
  apply G. split; [constructor|intros q []].
Qed.

Theorem response_routing s q is_exc :
  (forall cb, find_key q (callbacks s) = Some cb ->
     log (req_step s (EResponse q is_exc)) = log s ++ [(cb, is_exc)] /\ ~ In q (keys (req_step s (EResponse q is_exc)))
     /\ forall x, x <> q -> find_key x (callbacks (req_step s (EResponse q is_exc))) = find_key x (callbacks s))
  /\ (find_key q (callbacks s) = None -> req_step s (EResponse q is_exc) = s).
Proof.
  cbn. split; [intros cb ->|now intros ->]. cbn. split; [reflexivity|]. split.
  - unfold keys. cbn. intros X%remove_key_keys. tauto.
  - intros x Hx%Z.eqb_neq. now rewrite find_key_remove, Hx.
Qed.

Theorem undecodable_response s q : req_step s (EUndecodable q true) = req_step s (EResponse q true)
  /\ req_step s (EUndecodable q false) = s.
Proof. split; cbn; [destruct (find_key q (callbacks s)); reflexivity|reflexivity]. Qed.

Theorem seq_monotone s e : (next_seq s <= next_seq (req_step s e))%Z.
Proof. destruct (req_step_cases s e) as [(cb & ok & -> & _)|[->|(q & -> & _)]]; lia. Qed.

Theorem send_failure_unregisters s cb : callbacks (req_step s (ERequest cb false)) = callbacks s.
Proof. reflexivity. Qed.

(* the counter only hands out its own value, so a number below it that is not registered never is again *)
Lemma unknown_stays q evs : forall s, (q < next_seq s)%Z -> find_key q (callbacks s) = None ->
  find_key q (callbacks (fold_left req_step evs s)) = None.
Proof.
  induction evs as [|e t IH]; intros s Hlt Hn; [exact Hn|]. cbn [fold_left].
  destruct (req_step_cases s e) as [(cb & ok & En & Ec)|[->|(k & En & Ec)]]; [| now apply IH|]; (apply IH; [lia|rewrite Ec]).
  - destruct ok; [|exact Hn]. cbn. destruct (Z.eqb_spec (next_seq s) q); [lia|exact Hn].
  - rewrite find_key_remove, Hn. now destruct (Z.eqb q k).
Qed.
(* in particular a number that has been answered: it was registered, hence below the counter, and its registration is gone *)
Theorem answered_stays_unknown_forever s q is_exc evs : InvR s -> find_key q (callbacks s) <> None ->
  find_key q (callbacks (fold_left req_step evs (req_step s (EResponse q is_exc)))) = None.
Proof.
  intros [_ Hlt] Hq. cbn [req_step]. destruct (find_key q (callbacks s)) as [cb|] eqn:E; [|congruence].
  apply unknown_stays; cbn.
  - apply Hlt. apply (in_map fst _ _ (find_key_in _ _ _ E)).
  - now rewrite find_key_remove, Z.eqb_refl.
Qed.
