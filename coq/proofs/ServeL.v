(* C14, the bounded half: a waiter whose reply has been processed needs nobody else to get out.
   From ANY state in which its result cell is ready and it is anywhere inside wait()/serve(), the waiter's OWN steps - its next program
   step whenever it has one, one expiry of its own poll()/Condition.wait() timeout when it has none - take it to Returned in at
   most six steps, of which at most ONE is a timeout; no step of another thread, no further traffic and no notification is required.
   So the hold-up of finding F5 (c14_prompt_refuted) is bounded by one timeout of the waiter and is never a deadlock; and a waiter
   that is NOT in the window of c14_only_this_window returns without any timeout at all (alone_needs_timeout_only_in_window). *)
From V Require Import lib.Base model.Serve proofs.ServeP.

(* the waiter's own next move: the program step if enabled, else its timeout *)
Definition own (w : nat) (s : st) : option (st * bool) :=
  match step LStep w s with
  | Some s' => Some (s', false)
  | None => match step LTimeout w s with Some s' => Some (s', true) | None => None end
  end.

(* n own moves; the second component counts the timeouts used *)
Fixpoint own_n (n : nat) (w : nat) (s : st) : option (st * nat) :=
  match n with
  | O => Some (s, O)
  | S k => match tpc (thrs s w) with
           | Returned => Some (s, O)
           | _ => match own w s with
                  | Some (s', b) => match own_n k w s' with Some (s'', t) => Some (s'', (if b then 1 else 0) + t) | None => None end
                  | None => None
                  end
           end
  end.

(* distance to Returned along own moves once the cell is ready *)
Definition rank (p : pc) : nat :=
  match p with
  | Returned => 0 | LoopTest => 1 | Asleep => 2 | S5 => 2 | S4 => 3 | S3 => 4 | S2 => 5 | S1 => 6 | Idle => 7 | TimedOut => 7
  end.
(* where a timeout may still lie ahead: asleep, polling, or about to do one of the two *)
Definition may_block (p : pc) : bool := match p with Asleep | S2 | S1 => true | _ => false end.

Lemma step_myseq_kept s l i s' w : l = LStep \/ l = LTimeout -> step l i s = Some s' -> myseq (thrs s' w) = myseq (thrs s w).
Proof. intros Hl H. destruct (step_myseq s l i s' w H) as [E|(-> & _)]; [exact E|]. destruct Hl; discriminate. Qed.

(* the complement of the window: a timeout is needed only where c14_only_this_window finds a held-up waiter (asleep, or polling an empty
   stream) or one step before those places (at the try-acquire with the lock taken: it goes to sleep behind the holder, who by InvA is
   due to notify - c13_no_lost_wakeup; or with the lock free and nothing to read: it starts polling an empty stream) *)
Definition near_window (s : st) (w : nat) : Prop :=
  tpc (thrs s w) = Asleep \/ (tpc (thrs s w) = S2 /\ inbox s = []) \/ (tpc (thrs s w) = S1 /\ holder s <> None)
  \/ (tpc (thrs s w) = S1 /\ holder s = None /\ inbox s = []).

(* the timeouts a waiter whose cell is ready still has to sit out: one near the window, none elsewhere *)
Definition need (s : st) (w : nat) : nat :=
  match tpc (thrs s w), holder s, inbox s with
  | Asleep, _, _ | S2, _, [] | S1, Some _, _ | S1, None, [] => 1
  | _, _, _ => 0
  end.
Lemma need_window s w : need s w <> 0 -> near_window s w.
Proof.
  unfold need, near_window. destruct (tpc (thrs s w)); try congruence; auto.
  - destruct (holder s); [intros _; right; right; left; split; [reflexivity|discriminate]|].
    destruct (inbox s); [auto 7|congruence].
  - destruct (holder s), (inbox s); auto; congruence.
Qed.
Lemma need_blocking s w : may_block (tpc (thrs s w)) = false -> need s w = 0.
Proof. unfold need. now destruct (tpc (thrs s w)). Qed.
Lemma need_le s w : need s w <= 1.
Proof. unfold need. destruct (tpc (thrs s w)); auto; destruct (holder s), (inbox s); auto. Qed.

(* [own] has computed the move: read off the new program counter *)
Ltac fin := do 2 eexists; split; [reflexivity|]; cbn [thrs with_thr]; rewrite upd_same; cbn; split; [lia|split; [auto|lia]].

(* one own move of a waiter whose cell is ready: nearer to Returned, and a timeout is paid for out of [need] *)
Lemma own_descends s w q : InvB s ->
  myseq (thrs s w) = Some q -> ready s q = true -> in_loop (tpc (thrs s w)) = true ->
  exists s' b, own w s = Some (s', b)
    /\ rank (tpc (thrs s' w)) < rank (tpc (thrs s w))
    /\ (in_loop (tpc (thrs s' w)) = true \/ tpc (thrs s' w) = Returned)
    /\ (if b then 1 else 0) + need s' w <= need s w.
Proof.
  intros IB Hm Hr Hl. unfold own, step, need. cbv zeta.
  destruct (tpc (thrs s w)) eqn:E; try discriminate Hl.
  - rewrite Hm, Hr. fin.
  - destruct (holder s); fin.
  - fin.
  - destruct (inbox s); fin.
  - fin.
  - destruct (hand (thrs s w)); fin.
  - pose proof (B_s5 s IB w E) as H5. destruct (hand (thrs s w)); [fin|congruence].
Qed.

Lemma own_keeps s w s' b q : InvA s -> InvB s -> own w s = Some (s', b) ->
  myseq (thrs s w) = Some q -> ready s q = true ->
  InvA s' /\ InvB s' /\ myseq (thrs s' w) = Some q /\ ready s' q = true.
Proof.
  intros IA IB H Hm Hr.
  assert (X : exists l, (l = LStep \/ l = LTimeout) /\ step l w s = Some s').
  { unfold own in H. destruct (step LStep w s) eqn:E1; [|destruct (step LTimeout w s) eqn:E2; [|discriminate]];
      injection H as <- _; eauto. }
  destruct X as (l & Hl & H'). split; [eapply invA_step; eauto|]. split; [eapply invB_step; eauto|].
  split; [|eapply step_ready_mono; eauto]. now rewrite (step_myseq_kept s l w s' w Hl H').
Qed.

Lemma returns_alone_rank : forall n s w q, InvA s -> InvB s ->
  myseq (thrs s w) = Some q -> ready s q = true ->
  (in_loop (tpc (thrs s w)) = true \/ tpc (thrs s w) = Returned) -> rank (tpc (thrs s w)) <= n ->
  exists s' t, own_n n w s = Some (s', t) /\ tpc (thrs s' w) = Returned /\ myseq (thrs s' w) = Some q /\ ready s' q = true.
Proof.
  induction n as [|n IH]; intros s w q IA IB Hm Hr Hl Hk.
  - exists s, 0. cbn. split; [reflexivity|]. split; [|auto].
    destruct (tpc (thrs s w)); cbn in Hk; try lia; reflexivity.
  - destruct Hl as [Hl|Hret].
    + destruct (own_descends s w q IB Hm Hr Hl) as (s1 & b & Ho & Hlt & Hl1 & _).
      destruct (own_keeps s w s1 b q IA IB Ho Hm Hr) as (IA1 & IB1 & Hm1 & Hr1).
      destruct (IH s1 w q IA1 IB1 Hm1 Hr1 Hl1 ltac:(lia)) as (s2 & t & Hn & Hret & Hm2 & Hr2).
      exists s2, ((if b then 1 else 0) + t). cbn [own_n]. rewrite Ho, Hn.
      destruct (tpc (thrs s w)) eqn:E; try discriminate Hl; auto.
    + exists s, 0. cbn [own_n]. rewrite Hret. auto.
Qed.

Theorem late_waiter_returns_alone s w q : InvA s -> InvB s ->
  myseq (thrs s w) = Some q -> ready s q = true -> in_loop (tpc (thrs s w)) = true ->
  exists s' t, own_n 6 w s = Some (s', t) /\ tpc (thrs s' w) = Returned.
Proof.
  intros IA IB Hm Hr Hl.
  destruct (returns_alone_rank 6 s w q IA IB Hm Hr (or_introl Hl)) as (s' & t & H & Hret & _).
  - destruct (tpc (thrs s w)); cbn; try lia; discriminate Hl.
  - eauto.
Qed.

Lemma own_n_S n w s s1 b s' t : tpc (thrs s w) <> Returned -> own w s = Some (s1, b) -> own_n (S n) w s = Some (s', t) ->
  exists t2, own_n n w s1 = Some (s', t2) /\ t = (if b then 1 else 0) + t2.
Proof.
  intros Hnr Ho H. cbn [own_n] in H. rewrite Ho in H.
  destruct (own_n n w s1) as [[s2 t2]|]; [|destruct (tpc (thrs s w)); congruence].
  exists t2. destruct (tpc (thrs s w)); try congruence; inversion H; subst; auto.
Qed.

Lemma timeouts_bounded : forall n s w q s' t, InvA s -> InvB s ->
  myseq (thrs s w) = Some q -> ready s q = true -> own_n n w s = Some (s', t) -> t <= need s w.
Proof.
  induction n as [|n IH]; intros s w q s' t IA IB Hm Hr H; [injection H as _ <-; lia|].
  destruct (in_loop (tpc (thrs s w))) eqn:Hl.
  - destruct (own_descends s w q IB Hm Hr Hl) as (s1 & b & Ho & _ & _ & Hb).
    destruct (own_n_S n w s s1 b s' t) as (t2 & Hn & ->); [intros E; now rewrite E in Hl|exact Ho|exact H|].
    destruct (own_keeps s w s1 b q IA IB Ho Hm Hr) as (IA1 & IB1 & Hm1 & Hr1).
    pose proof (IH s1 w q s' t2 IA1 IB1 Hm1 Hr1 Hn). lia.
  - cbn [own_n] in H. destruct (tpc (thrs s w)) eqn:E; try discriminate Hl.
    + pose proof (B_idle s IB w E). congruence.
    + injection H as _ <-. lia.
    + unfold own, step in H. rewrite E in H. discriminate.
Qed.

Lemma no_timeout_when_not_blocking n s w q s' t : InvA s -> InvB s ->
  myseq (thrs s w) = Some q -> ready s q = true ->
  may_block (tpc (thrs s w)) = false -> own_n n w s = Some (s', t) -> t = 0.
Proof.
  intros IA IB Hm Hr Hb H. pose proof (timeouts_bounded n s w q s' t IA IB Hm Hr H). rewrite (need_blocking s w Hb) in *. lia.
Qed.

Theorem at_most_one_timeout n s w q s' t : InvA s -> InvB s ->
  myseq (thrs s w) = Some q -> ready s q = true -> in_loop (tpc (thrs s w)) = true ->
  own_n n w s = Some (s', t) -> t <= 1.
Proof.
  intros IA IB Hm Hr _ H. pose proof (timeouts_bounded n s w q s' t IA IB Hm Hr H). pose proof (need_le s w). lia.
Qed.

Lemma s2_with_a_frame_needs_no_timeout n s w q s' t : InvA s -> InvB s ->
  myseq (thrs s w) = Some q -> ready s q = true -> tpc (thrs s w) = S2 -> inbox s <> [] ->
  own_n n w s = Some (s', t) -> t = 0.
Proof.
  intros IA IB Hm Hr E Hi H. pose proof (timeouts_bounded n s w q s' t IA IB Hm Hr H) as X.
  unfold need in X. rewrite E in X. destruct (inbox s); [congruence|lia].
Qed.

Theorem alone_needs_timeout_only_in_window n s w q s' t : InvA s -> InvB s ->
  myseq (thrs s w) = Some q -> ready s q = true -> in_loop (tpc (thrs s w)) = true ->
  own_n n w s = Some (s', t) -> t <> 0 -> near_window s w.
Proof.
  intros IA IB Hm Hr _ H Ht. apply need_window. pose proof (timeouts_bounded n s w q s' t IA IB Hm Hr H). lia.
Qed.
