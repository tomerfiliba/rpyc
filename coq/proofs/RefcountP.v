(* C10 — proofs about model/Refcount.v for the parameters found in the code: [stdp sc cg cf fr rc], where the
   booleans are the close-path and failure-path facts of the tree (send refuses on a closed channel / the clear in
   _cleanup cannot be skipped by on_disconnect / close() calls _cleanup in a finally / what _box registered is given
   back when the message is not sent / the reply path refuses before boxing on a closed channel). *)
From V Require Import lib.Base model.Refcount.
Open Scope Z_scope.

Definition b2z (b : bool) : Z := if b then 1 else 0.
Fixpoint cnt (ks : list nat) (k : nat) : Z :=
  match ks with [] => 0 | j :: r => b2z (Nat.eqb j k) + cnt r k end.
Definition refs_m (m : msg) (k : nat) : Z :=
  match m with
  | MCall ks => cnt ks k
  | MCallRaise ks => cnt ks k
  | MReplyRef (Some r) => b2z (Nat.eqb r k)
  | _ => 0
  end.
Fixpoint refs (q : list msg) (k : nat) : Z :=
  match q with [] => 0 | m :: r => refs_m m k + refs r k end.
Definition dels_m (m : msg) (k : nat) : Z :=
  match m with
  | MDel j n => if Nat.eqb j k then n else 0
  | MDel0 j => b2z (Nat.eqb j k)
  | _ => 0
  end.
Fixpoint dels (q : list msg) (k : nat) : Z :=
  match q with [] => 0 | m :: r => dels_m m k + dels r k end.

(* number of references the owner's table accounts for *)
Definition Sv (t : tbl) (k : nat) : Z := match t k with Some z => z + 1 | None => 0 end.
Definition pz (o : option Z) : Z := match o with Some r => r | None => 0 end.

Lemma b2z_range b : 0 <= b2z b <= 1.
Proof. destruct b; cbn; lia. Qed.
Lemma cnt_nonneg ks k : 0 <= cnt ks k.
Proof. induction ks as [|j r IH]; cbn [cnt]; [|pose proof (b2z_range (Nat.eqb j k))]; lia. Qed.
Lemma cnt_in ks k : In k ks -> 1 <= cnt ks k.
Proof.
  induction ks as [|j r IH]; intros H; [destruct H|]. cbn [cnt].
  pose proof (cnt_nonneg r k). pose proof (b2z_range (Nat.eqb j k)).
  destruct H as [->|H]; [rewrite Nat.eqb_refl; cbn [b2z]|specialize (IH H)]; lia.
Qed.
Lemma cnt_app a b k : cnt (a ++ b) k = cnt a k + cnt b k.
Proof. induction a as [|j r IH]; cbn [cnt app]; [lia|]. rewrite IH. lia. Qed.
Lemma refs_app a b k : refs (a ++ b) k = refs a k + refs b k.
Proof. induction a as [|j r IH]; cbn [refs app]; [lia|]. rewrite IH. lia. Qed.
Lemma dels_app a b k : dels (a ++ b) k = dels a k + dels b k.
Proof. induction a as [|j r IH]; cbn [dels app]; [lia|]. rewrite IH. lia. Qed.
Lemma refs_m_nonneg m k : 0 <= refs_m m k.
Proof. destruct m as [ks|ks|[r|]| | | | |]; cbn [refs_m]; try lia; try apply cnt_nonneg. apply b2z_range. Qed.
Lemma refs_nonneg q k : 0 <= refs q k.
Proof. induction q as [|m r IH]; cbn [refs]; [|pose proof (refs_m_nonneg m k)]; lia. Qed.

Lemma upd_same {A} (f : nat -> A) k v : upd f k v k = v.
Proof. unfold upd. now rewrite Nat.eqb_refl. Qed.
Lemma upd_other {A} (f : nat -> A) k v j : j <> k -> upd f k v j = f j.
Proof. intros H. unfold upd. now destruct (Nat.eqb_spec j k). Qed.
Lemma upd_all {A} (Q : A -> Prop) (f : nat -> A) k v : (forall j, Q (f j)) -> Q v -> forall j, Q (upd f k v j).
Proof. intros Hf Hv j. destruct (Nat.eq_dec j k) as [->|H]; [now rewrite upd_same|now rewrite upd_other]. Qed.

(* [coll_add], [unbox_p] and the peer application's own bookkeeping all replace one entry x of a table by [g x];
   when a measure [mu] of the entries grows by one under [g], a fold over ks adds [cnt ks] to it *)
Section Bump.
Context {A : Type} (g : A -> A) (mu : A -> Z) (Q : A -> Prop).
Hypothesis g_mu : forall x, mu (g x) = mu x + 1.
Hypothesis g_Q : forall x, Q x -> Q (g x).
Lemma bump_fold ks : forall f, (forall k, Q (f k)) ->
  let f' := fold_left (fun f j => upd f j (g (f j))) ks f in
  (forall k, Q (f' k)) /\ forall k, mu (f' k) = mu (f k) + cnt ks k.
Proof.
  induction ks as [|j r IH]; intros f Hf; cbn [fold_left cnt]; [split; [exact Hf|intros; lia]|].
  destruct (IH (upd f j (g (f j)))) as [H1 H2].
  - apply upd_all; auto.
  - split; [exact H1|]. intros k. rewrite H2.
    destruct (Nat.eqb_spec j k) as [<-|Hne]; cbn [b2z]; [rewrite upd_same, g_mu|rewrite upd_other by congruence]; lia.
Qed.
End Bump.

(* a release notice as the finalizer of these parameters sends it: with an explicit, positive count *)
Definition del_ok (m : msg) : Prop := match m with MDel _ n => 1 <= n | MDel0 _ => False | _ => True end.
Definition has_del (k : nat) (q : list msg) : Prop := (exists n, In (MDel k n) q) \/ In (MDel0 k) q.

Lemma dels_m_nonneg m k : del_ok m -> 0 <= dels_m m k.
Proof. destruct m as [| | | |j n|j| |]; cbn [dels_m del_ok]; try lia. destruct (Nat.eqb j k); lia. Qed.
Lemma dels_nonneg q k : Forall del_ok q -> 0 <= dels q k.
Proof. induction 1 as [|m r Hm _ IH]; cbn [dels]; [|apply (dels_m_nonneg m k) in Hm]; lia. Qed.
Lemma dels_has q k : Forall del_ok q -> has_del k q -> 1 <= dels q k.
Proof.
  induction 1 as [|m r Hm Hr IH]; intros Hd; [destruct Hd as [[n []]|[]]|]. cbn [dels].
  pose proof (dels_m_nonneg m k Hm). pose proof (dels_nonneg r k Hr).
  destruct Hd as [[n [->|Hin]]|[->|Hin]].
  - cbn [dels_m del_ok] in *. rewrite Nat.eqb_refl. lia.
  - assert (1 <= dels r k) by (apply IH; left; now exists n). lia.
  - destruct Hm.
  - assert (1 <= dels r k) by (apply IH; now right). lia.
Qed.

(* every request through proxies in flight is covered: each proxy it mentions is alive, or has been finalized
   and its release notice follows the request *)
Definition mentions (m : msg) (k : nat) : Prop :=
  match m with MUse c args _ => In k (c :: args) | _ => False end.
Fixpoint covered (p : nat -> option Z) (q : list msg) : Prop :=
  match q with
  | [] => True
  | m :: post => (forall k, mentions m k -> 1 <= pz (p k) + dels post k) /\ covered p post
  end.

Lemma covered_mono p p' q : (forall k, pz (p k) <= pz (p' k)) -> covered p q -> covered p' q.
Proof.
  intros Hp. induction q as [|m r IH]; cbn [covered]; [auto|]. intros [H1 H2]. split; [|auto].
  intros k Hk. specialize (H1 k Hk). specialize (Hp k). lia.
Qed.
(* m is appended while proxies die ([dels_m m] makes up for their counts) or grow *)
Lemma covered_snoc p p' q m : covered p q -> (forall k, pz (p k) <= pz (p' k) + dels_m m k) ->
  (forall k, mentions m k -> 1 <= pz (p' k)) -> covered p' (q ++ [m]).
Proof.
  intros Hq Hp Hm. induction q as [|x r IH]; cbn [covered app dels].
  - split; [|exact I]. intros k Hk. specialize (Hm k Hk). lia.
  - destruct Hq as [H1 H2]. split; [|auto]. intros k Hk. specialize (H1 k Hk). specialize (Hp k).
    rewrite dels_app. cbn [dels]. lia.
Qed.
Lemma covered_in p q m k : Forall del_ok q -> covered p q -> In m q -> mentions m k -> 1 <= pz (p k) + dels q k.
Proof.
  induction 1 as [|x r Hx Hr IH]; intros Hu Hin Hk; [destruct Hin|].
  cbn [covered dels] in *. destruct Hu as [H1 H2]. pose proof (dels_m_nonneg x k Hx).
  destruct Hin as [->|Hin]; [specialize (H1 k Hk)|specialize (IH H2 Hin Hk)]; lia.
Qed.

Definition ge_entry (b : Z) (o : option Z) : Prop := forall z, o = Some z -> b <= z.
Definition nonneg (t : tbl) : Prop := forall k, ge_entry 0 (t k).
Definition ppos (p : nat -> option Z) : Prop := forall k, ge_entry 1 (p k).
Lemma Sv_cases t k : nonneg t -> t k = None /\ Sv t k = 0 \/ t k <> None /\ 1 <= Sv t k.
Proof. intros H. unfold Sv. destruct (t k) as [z|] eqn:E; [right; specialize (H k z E); split; [discriminate|lia]|now left]. Qed.
Lemma pz_cases p k : ppos p -> p k = None /\ pz (p k) = 0 \/ p k <> None /\ 1 <= pz (p k).
Proof. intros H. destruct (p k) as [r|] eqn:E; [right; split; [discriminate|exact (H k r E)]|now left]. Qed.

Lemma pz_nonneg p k : ppos p -> 0 <= pz (p k).
Proof. intros H. destruct (pz_cases p k H); lia. Qed.

Lemma iter_succ_r {A} n (f : A -> A) x : Nat.iter (S n) f x = Nat.iter n f (f x).
Proof. induction n as [|n IH]; [reflexivity|]. cbn [Nat.iter nat_rect] in *. now rewrite IH. Qed.
Lemma iter_pres {A} (Q : A -> Prop) (f : A -> A) n s : (forall x, Q x -> Q (f x)) -> Q s -> Q (Nat.iter n f s).
Proof. intros Hf Hs. induction n; cbn [Nat.iter nat_rect]; auto. Qed.
Lemma Forall_snoc {A} (Q : A -> Prop) l x : Forall Q l -> Q x -> Forall Q (l ++ [x]).
Proof. intros Hl Hx. apply Forall_app. split; [exact Hl|now constructor]. Qed.
Lemma Forall_tl {A} (Q : A -> Prop) l : Forall Q l -> Forall Q (tl l).
Proof. intros H. destruct l; [exact H|now apply Forall_inv_tail in H]. Qed.
Section Std.
Variables sc cg cf fr rc : bool.
Notation P0 := (stdp sc cg cf fr rc).

Lemma box_all_spec ks t : nonneg t -> nonneg (box_all P0 t ks) /\ forall k, Sv (box_all P0 t ks) k = Sv t k + cnt ks k.
Proof.
  apply (bump_fold (fun o => match o with None => Some (p_add_init P0) | Some z => Some (z + p_add_inc P0) end)
                   (fun o => match o with Some z => z + 1 | None => 0 end) (ge_entry 0)).
  - intros [z|]; cbn; lia.
  - intros [z|] H y [= <-]; cbn; [specialize (H z eq_refl)|]; lia.
Qed.
Lemma add_spec t j : nonneg t -> nonneg (coll_add P0 t j) /\ forall k, Sv (coll_add P0 t j) k = Sv t k + b2z (Nat.eqb j k).
Proof.
  intros H. change (coll_add P0 t j) with (box_all P0 t [j]). destruct (box_all_spec [j] t H) as [A B].
  split; [exact A|]. intros k. rewrite B. cbn [cnt]. lia.
Qed.

Lemma decref_spec t k z n : nonneg t -> t k = Some z -> 1 <= n <= z + 1 ->
  exists t', coll_decref P0 t k n = Ok t' /\ nonneg t' /\ forall j, Sv t' j = Sv t j - dels_m (MDel k n) j.
Proof.
  intros Ht E Hn. unfold coll_decref. rewrite E. cbn [p_dec_cmp stdp cmp_holds dels_m].
  assert (S : forall o, match o with Some y => y + 1 | None => 0 end = z + 1 - n ->
              forall j, Sv (upd t k o) j = Sv t j - (if Nat.eqb k j then n else 0)).
  { intros o Ho j. unfold Sv. destruct (Nat.eqb_spec k j) as [<-|Hne]; [rewrite upd_same, E|rewrite upd_other by congruence]; lia. }
  eexists. split; [reflexivity|].
  destruct (Z.ltb_spec z n); (split; [unfold nonneg; apply (upd_all (ge_entry 0)); [exact Ht|]|apply S; lia]).
  - discriminate.
  - intros y [= <-]. lia.
Qed.

Lemma unbox_spec ks p : ppos p ->
  ppos (fold_left (unbox_p P0) ks p) /\ forall k, pz (fold_left (unbox_p P0) ks p k) = pz (p k) + cnt ks k.
Proof.
  apply (bump_fold (fun o => match o with Some r => Some (r + p_unbox_inc P0) | None => Some (p_proxy_init P0) end)
                   pz (ge_entry 1)).
  - intros [r|]; cbn; lia.
  - intros [r|] H y [= <-]; cbn; [specialize (H r eq_refl)|]; lia.
Qed.
Lemma kept_spec ks (h : nat -> nat) k :
  Z.of_nat (fold_left (fun h k => upd h k (S (h k))) ks h k) = Z.of_nat (h k) + cnt ks k.
Proof. apply (bump_fold S Z.of_nat (fun _ => True)); auto. intros; lia. Qed.
Lemma unbox_all_eq P s ks : unbox_all P s ks =
  set_peer s (fold_left (unbox_p P) ks (prox s)) (fold_left (fun h k => upd h k (S (h k))) ks (holds s)).
Proof.
  unfold unbox_all. generalize (prox s) (holds s). induction ks as [|j r IH]; intros p h; [reflexivity|].
  cbn [fold_left unbox1]. apply IH.
Qed.

(* The invariant of open connections.  [hand k]: what the message that has been taken off a stream and is being
   served stood for in the count of k. *)
Record InvH (hand : nat -> Z) (s : st) : Prop := {
  i_open : closed s = false;
  i_cnt : forall k, Sv (slot s) k = refs (qab s) k + hand k + pz (prox s k) + dels (qba s) k;
  i_nonneg : nonneg (slot s);
  i_ppos : ppos (prox s);
  i_dels : Forall del_ok (qba s);
  i_held : forall k, Z.of_nat (holds s k) <= pz (prox s k);
  i_uses : covered (prox s) (qba s);
  i_errs : errs s = O;
  i_morph : forall k, morphed s k = false
}.
Notation Inv := (InvH (fun _ => 0)).

Lemma init_inv : Inv init.
Proof. split; cbn; try easy. Qed.

Lemma take_ab s m q hand : Inv s -> qab s = m :: q -> (forall k, hand k = refs_m m k) -> InvH hand (set_qab s q).
Proof. intros I E H. split; cbn; try apply I. intros k. rewrite (i_cnt _ _ I), E, H. cbn [refs]. lia. Qed.
Lemma take_ba s m q : Inv s -> qba s = m :: q ->
  InvH (dels_m m) (set_qba s q) /\ del_ok m /\ forall k, mentions m k -> 1 <= pz (prox s k) + dels q k.
Proof.
  intros I E. pose proof (i_dels _ _ I) as Hd. pose proof (i_uses _ _ I) as Hu. rewrite E in Hd, Hu. destruct Hu as [Hu1 Hu2].
  split; [split; cbn; try apply I|split; [now apply Forall_inv in Hd|exact Hu1]].
  - (* i_cnt *) intros k. rewrite (i_cnt _ _ I), E. cbn [dels]. lia.
  - (* i_dels *) now apply Forall_inv_tail in Hd.
  - (* i_uses *) exact Hu2.
Qed.

Lemma send_inv b ks s : Inv s -> Inv (send P0 b ks s).
Proof.
  intros I. unfold send. destruct (box_all_spec (filter (appref s) ks) (slot s) (i_nonneg _ _ I)) as [N1 N2].
  split; cbn; try apply I.
  - (* i_cnt *) intros k. rewrite N2, refs_app, (i_cnt _ _ I). destruct b; cbn [refs refs_m]; lia.
  - (* i_nonneg *) exact N1.
Qed.

Lemma unboxed_inv ks s h : InvH (cnt ks) s -> (forall k, Z.of_nat (h k) <= Z.of_nat (holds s k) + cnt ks k) ->
  Inv (set_peer s (fold_left (unbox_p P0) ks (prox s)) h).
Proof.
  intros I H. destruct (unbox_spec ks (prox s) (i_ppos _ _ I)) as [A B].
  split; cbn; try apply I.
  - (* i_cnt *) intros k. rewrite B, (i_cnt _ _ I). lia.
  - (* i_ppos *) exact A.
  - (* i_held *) intros k. rewrite B. pose proof (i_held _ _ I k). specialize (H k). lia.
  - (* i_uses *) apply (covered_mono (prox s)); [|apply I]. intros k. rewrite B. pose proof (cnt_nonneg ks k). lia.
Qed.
Lemma unbox_all_inv ks s : InvH (cnt ks) s -> Inv (unbox_all P0 s ks).
Proof. intros I. rewrite unbox_all_eq. apply unboxed_inv; [exact I|]. intros k. rewrite kept_spec. lia. Qed.

Lemma post_ba_inv x s d : InvH x s -> del_ok d -> (forall k, dels_m d k = 0) ->
  (forall k, mentions d k -> holds s k <> O) -> InvH x (set_qba s (qba s ++ [d])).
Proof.
  intros I D1 D2 D3. split; cbn; try apply I.
  - (* i_cnt *) intros k. rewrite dels_app, (i_cnt _ _ I). cbn [dels]. rewrite D2. lia.
  - (* i_dels *) apply Forall_snoc; [apply I|exact D1].
  - (* i_uses *) apply (covered_snoc (prox s)); [apply I| |].
    + intros k. rewrite D2. lia.
    + intros k Hk. specialize (D3 k Hk). pose proof (i_held _ _ I k). lia.
Qed.

Lemma let_go_inv x s h : InvH x s -> (forall k, (h k <= holds s k)%nat) -> InvH x (set_peer s (prox s) h).
Proof. intros I H. split; cbn; try apply I. intros k. specialize (H k). pose proof (i_held _ _ I k). lia. Qed.
Lemma upd_le (h : nat -> nat) k v : (v <= h k)%nat -> forall j, (upd h k v j <= h j)%nat.
Proof. intros H j. destruct (Nat.eq_dec j k) as [->|Hne]; [rewrite upd_same|rewrite upd_other by exact Hne]; lia. Qed.

Lemma finalize_inv x j s : InvH x s -> InvH x (finalize P0 j s).
Proof.
  intros I. unfold finalize. destruct (prox s j) as [r|] eqn:Er; [|apply let_go_inv; [exact I|apply upd_le; lia]].
  cbn [del_msg p_del_src stdp]. pose proof (i_ppos _ _ I) as Hp.
  (* the whole count of the dying proxy goes into its release notice *)
  assert (Hz : forall k, pz (prox s k) = pz (upd (prox s) j None k) + dels_m (MDel j r) k).
  { intros k. cbn [dels_m]. destruct (Nat.eqb_spec j k) as [<-|Hne]; [rewrite upd_same, Er|rewrite upd_other by congruence]; cbn [pz]; lia. }
  split; cbn; try apply I.
  - (* i_cnt *) intros k. rewrite dels_app, (i_cnt _ _ I), (Hz k). cbn [dels]. lia.
  - (* i_ppos *) unfold ppos. apply (upd_all (ge_entry 1)); [exact Hp|discriminate].
  - (* i_dels *) apply Forall_snoc; [apply I|exact (Hp j r Er)].
  - (* i_held *) intros k. pose proof (i_held _ _ I k). destruct (Nat.eq_dec k j) as [->|Hne]; [rewrite !upd_same|rewrite !upd_other by exact Hne]; cbn [pz]; lia.
  - (* i_uses *) apply (covered_snoc (prox s)); [apply I| |intros k []]. intros k. rewrite (Hz k). lia.
Qed.

Lemma repin_inv ks s : InvH (cnt ks) s -> Inv (repin P0 ks s).
Proof.
  intros I. unfold repin. apply fold_left_inv; [intros; now apply finalize_inv|].
  apply (post_ba_inv _ _ MExc); cbn; try easy.
  assert (I1 : Inv (set_peer s (fold_left (unbox_p P0) ks (prox s)) (holds s))).
  { apply unboxed_inv; [exact I|]. intros k. pose proof (cnt_nonneg ks k). lia. }
  split; apply I1.
Qed.

Lemma deliver_ab_inv s : Inv s -> Inv (deliver_ab P0 s).
Proof.
  intros I. unfold deliver_ab. destruct (qab s) as [|m q] eqn:Eq; [exact I|].
  pose proof (take_ab s m q) as T.
  destruct m as [ks|ks|[r|]| |k n|k|c args md|]; cbn [serve_peer]; try now apply T.
  - apply (post_ba_inv _ _ MReply); cbn; try easy. apply unbox_all_inv. now apply T.
  - apply repin_inv. now apply T.
  - apply unbox_all_inv. apply T; [exact I|exact Eq|]. intros k. cbn [refs_m cnt]. lia.
Qed.

(* what the owner answers to the message at the head of its stream when it can serve it *)
Definition answer (args : list nat) (md : umode) : msg :=
  match md, args with UBoom, _ => MExc | URet, r :: _ => MReplyRef (Some r) | _, _ => MReplyRef None end.
Definition owner_answer (q : list msg) : list msg :=
  match q with MDel _ _ :: _ => [MReplyRef None] | MUse _ args md :: _ => [answer args md] | _ => [] end.

Lemma deliver_ba_spec s : Inv s -> let s' := deliver_ba P0 s in
  Inv s' /\ qab s' = qab s ++ owner_answer (qba s) /\
  tbo s' = match qba s with MUse c args UBoom :: _ => c :: args | _ => tbo s end.
Proof.
  intros I. cbn zeta. unfold deliver_ba. destruct (qba s) as [|m q] eqn:Eq; [now rewrite app_nil_r|].
  destruct (take_ba s m q I Eq) as (I' & Hok & Hk). pose proof (i_nonneg _ _ I) as Hn.
  pose proof (i_cnt _ _ I') as Hc. pose proof (i_dels _ _ I') as Hd. cbn in Hc, Hd.
  destruct m as [ks|ks|r| |k n|k|c args md|]; cbn [serve_owner set_qba slot morphed owner_answer]; rewrite ?app_nil_r;
    try (split; [exact I'|now split]).
  - (* a release notice: the table accounts for at least its count *)
    pose proof (Hc k) as Hck. cbn [dels_m del_ok] in Hck, Hok. rewrite Nat.eqb_refl in Hck.
    pose proof (refs_nonneg (qab s) k). pose proof (dels_nonneg q k Hd). pose proof (pz_nonneg _ k (i_ppos _ _ I)).
    unfold Sv in Hck. destruct (slot s k) as [z|] eqn:Ez; [|lia].
    destruct (decref_spec (slot s) k z n Hn Ez) as (t' & Et & Nt & St); [lia|].
    rewrite (i_morph _ _ I k), Et. split; [|now split]. split; cbn; try apply I'; [|exact Nt].
    intros j. rewrite refs_app, St, (Hc j). cbn [refs refs_m]. lia.
  - destruct Hok.
  - (* a request through proxies: each is alive or its release notice is behind the request *)
    assert (Hall : all_present (slot s) (c :: args) = true).
    { apply forallb_forall. intros k Hin. specialize (Hk k Hin). specialize (Hc k). cbn [dels_m] in Hc.
      pose proof (refs_nonneg (qab s) k). unfold Sv in Hc. destruct (slot s k); [reflexivity|lia]. }
    rewrite Hall. destruct md, args as [|r args']; (split; [|now split]); split; cbn; try apply I';
      try (intros k; rewrite refs_app, Hc; cbn [refs refs_m dels_m]; lia).
    (* left: the callee returns its argument r, counted once more in the table and once in the answer *)
    + intros k. rewrite refs_app, (proj2 (add_spec _ r Hn)), Hc. cbn [refs refs_m dels_m]. lia.
    + now apply add_spec.
Qed.
Lemma deliver_ba_inv s : Inv s -> Inv (deliver_ba P0 s).
Proof. intros I. apply (deliver_ba_spec s I). Qed.

Lemma release_inv k s : Inv s -> Inv (release P0 k s).
Proof. intros I. unfold release. destruct (mem k (pin s)); [apply let_go_inv; [exact I|apply upd_le; lia]|now apply finalize_inv]. Qed.
Lemma drop_all_inv k s : Inv s -> Inv (drop_all P0 k s).
Proof. intros I. unfold drop_all. destruct (holds s k); [exact I|now apply release_inv]. Qed.
Lemma drop_one_inv k s : Inv s -> Inv (drop_one P0 k s).
Proof.
  intros I. unfold drop_one. destruct (holds s k) as [|[|h]] eqn:Eh; [exact I|now apply release_inv|].
  apply let_go_inv; [exact I|apply upd_le; lia].
Qed.

Lemma all_held_spec s ks : all_held s ks = true <-> forall k, In k ks -> holds s k <> O.
Proof.
  unfold all_held. rewrite forallb_forall. split; intros H k Hk; specialize (H k Hk); now destruct (Nat.eqb_spec (holds s k) O).
Qed.
Lemma use_inv c args md s : Inv s -> Inv (use c args md s).
Proof.
  intros I. unfold use. destruct (all_held s (c :: args)) eqn:E; [|exact I].
  apply post_ba_inv; cbn; try easy. now apply (all_held_spec s (c :: args)).
Qed.
Lemma sync_inv s : Inv s -> Inv (sync P0 s).
Proof. intros I. unfold sync. apply iter_pres; [apply deliver_ba_inv|]. apply iter_pres; [apply deliver_ab_inv|exact I]. Qed.
Lemma forget_inv k s : Inv s -> Inv (set_appref s (upd (appref s) k false)).
Proof. intros I. split; apply I. Qed.

(* all states of valid histories: open and invariant, or closed without a KeyError *)
Definition Good (s : st) : Prop := if closed s then errs s = O else Inv s.

Lemma step_closed_facts o s : closed (step_closed P0 o s) = closed s /\ errs (step_closed P0 o s) = errs s.
Proof. destruct o; cbn [step_closed]; try (destruct (p_send_checks_closed P0)); split; reflexivity. Qed.

Lemma step_good o s : valid_op o -> Good s -> Good (step P0 o s).
Proof.
  intros Hv Hg. unfold step. unfold Good in Hg. destruct (closed s) eqn:Ec.
  - unfold Good. destruct (step_closed_facts o s) as [A B]. rewrite A, Ec, B. exact Hg.
  - assert (Hopen : forall x, Inv x -> Good x) by (intros x Ix; unfold Good; now rewrite (i_open _ x Ix)).
    destruct o; try destruct Hv.
    + apply Hopen, send_inv, Hg.
    + apply Hopen, sync_inv, send_inv, Hg.
    + apply Hopen, send_inv, Hg.
    + apply Hopen, deliver_ab_inv, Hg.
    + apply Hopen, deliver_ba_inv, Hg.
    + apply Hopen, drop_one_inv, Hg.
    + apply Hopen, drop_all_inv, Hg.
    + apply Hopen, use_inv, Hg.
    + apply Hopen, forget_inv, Hg.
    + apply Hopen, sync_inv, Hg.
    + (* closing by the peer: the owner first serves what the peer had sent; the closed state keeps that error count *)
      change (errs (if by_peer then Nat.iter (List.length (qba s)) (deliver_ba P0) s else s) = O).
      apply (i_errs (fun _ => 0)).
      destruct by_peer; [apply iter_pres; [apply deliver_ba_inv|exact Hg]|exact Hg].
Qed.

Lemma run_from_app P s a b : run_from P s (a ++ b) = run_from P (run_from P s a) b.
Proof. apply fold_left_app. Qed.
Lemma run_app P a b : run P (a ++ b) = run_from P (run P a) b.
Proof. apply run_from_app. Qed.
Lemma run_snoc P ops o : run P (ops ++ [o]) = step P o (run P ops).
Proof. apply run_app. Qed.

Lemma run_good ops : Forall valid_op ops -> Good (run P0 ops).
Proof.
  induction ops as [|o l IH] using rev_ind; intros Hv; [apply init_inv|]. rewrite run_snoc.
  apply Forall_app in Hv as [Hl Hv]. apply step_good; [now apply Forall_inv in Hv|now apply IH].
Qed.
Lemma run_inv ops : Forall valid_op ops -> closed (run P0 ops) = false -> Inv (run P0 ops).
Proof. intros Hv Ho. pose proof (run_good ops Hv) as G. unfold Good in G. now rewrite Ho in G. Qed.
Lemma good_errs s : Good s -> errs s = O.
Proof. unfold Good. destruct (closed s); [tauto|apply i_errs]. Qed.

(* C10 item 1: the counting invariant *)
Theorem count_invariant s k : Inv s -> Sv (slot s) k = refs (qab s) k + pz (prox s k) + dels (qba s) k.
Proof. intros I. rewrite (i_cnt _ s I). lia. Qed.

(* what keeps object k referenced by the owner's connection *)
Definition held_or_in_flight (s : st) (k : nat) : Prop :=
  prox s k <> None \/ 1 <= refs (qab s) k \/ has_del k (qba s) \/ exists m, In m (qba s) /\ mentions m k.

(* C10 item 2: alive while held *)
Theorem alive_while_held s k : Inv s -> held_or_in_flight s k -> slot s k <> None /\ alive s k = true.
Proof.
  intros I H. pose proof (i_dels _ _ I) as Hd.
  assert (Hs : slot s k <> None).
  { pose proof (refs_nonneg (qab s) k). pose proof (dels_nonneg (qba s) k Hd).
    destruct (Sv_cases _ k (i_nonneg _ _ I)) as [[_ Hz]|[? _]]; [exfalso|assumption]. rewrite (count_invariant s k I) in Hz.
    destruct (pz_cases _ k (i_ppos _ _ I)) as [[? ?]|[_ ?]]; [|lia].
    destruct H as [H|[H|[H|(m & Hin & Hmm)]]].
    - contradiction.
    - lia.
    - pose proof (dels_has _ _ Hd H). lia.
    - pose proof (covered_in _ _ _ _ Hd (i_uses _ _ I) Hin Hmm). lia. }
  split; [exact Hs|]. unfold alive. destruct (slot s k); [|congruence]. now rewrite orb_true_r.
Qed.

(* C10 item 3: nothing in flight and no proxy: the owner's table has let go; what can still keep the object alive is
   its owner application -- or the frames of the owner connection's last traceback *)
Theorem released_at_quiescence s k : Inv s -> refs (qab s) k = 0 -> dels (qba s) k = 0 -> prox s k = None ->
  slot s k = None /\ alive s k = appref s k || mem k (tbo s).
Proof.
  intros I Hr Hd Hp. pose proof (count_invariant s k I) as H. rewrite Hr, Hd, Hp in H. cbn [pz] in H.
  assert (E : slot s k = None) by (destruct (Sv_cases _ k (i_nonneg _ s I)) as [[? _]|[_ ?]]; [assumption|lia]).
  split; [exact E|]. unfold alive. rewrite E. now rewrite orb_false_r.
Qed.

Lemma finalize_frame P j s : closed (finalize P j s) = closed s /\ qab (finalize P j s) = qab s.
Proof. unfold finalize. destruct (prox s j); now split. Qed.
Lemma finalize_holds j s k : holds s k = O -> holds (finalize P0 j s) k = O.
Proof.
  intros H. unfold finalize. destruct (prox s j); cbn; (destruct (Nat.eq_dec k j) as [->|Hne]; [apply upd_same|now rewrite upd_other]).
Qed.

Lemma deliver_ab_frame P s : closed (deliver_ab P s) = closed s /\ qab (deliver_ab P s) = tl (qab s).
Proof.
  unfold deliver_ab. destruct (qab s) as [|m q] eqn:E; [now rewrite E|].
  destruct m as [ks|ks|[r|]| | | | |]; cbn [serve_peer]; rewrite ?unbox_all_eq; try now split.
  unfold repin. apply (fold_left_inv _ (fun x => closed x = closed s /\ qab x = q)); [|now split].
  intros x j _ [A B]. destruct (finalize_frame P j x) as [C D]. now rewrite C, D.
Qed.
Lemma deliver_ba_frame P s : let s' := deliver_ba P s in
  closed s' = closed s /\ qba s' = tl (qba s) /\ prox s' = prox s /\ holds s' = holds s /\ pin s' = pin s.
Proof.
  cbn zeta. unfold deliver_ba. destruct (qba s) as [|m q] eqn:E; [now rewrite E|].
  destruct m as [ks|ks|r| |k n|k|c args md|]; cbn [serve_owner tl]; try (repeat split; reflexivity).
  - destruct (slot _ k); [destruct (morphed _ k); [|destruct (coll_decref P _ k n)]|]; repeat split; reflexivity.
  - destruct (slot _ k); [destruct (morphed _ k); [|destruct (coll_decref P _ k _)]|]; repeat split; reflexivity.
  - destruct (all_present _ _), md, args; repeat split; reflexivity.
Qed.

Lemma iter_skipn (f : st -> st) (sel : st -> list msg) : (forall s, sel (f s) = tl (sel s)) ->
  forall n s, sel (Nat.iter n f s) = skipn n (sel s).
Proof.
  intros Hf. induction n as [|n IH]; intros s; [reflexivity|].
  rewrite iter_succ_r, IH, Hf. destruct (sel s); [now rewrite skipn_nil|reflexivity].
Qed.
Lemma drain_ab P s : qab (Nat.iter (List.length (qab s)) (deliver_ab P) s) = [].
Proof. rewrite (iter_skipn (deliver_ab P) qab) by (intros; apply deliver_ab_frame). apply skipn_all. Qed.
Lemma drain_ba P s : qba (Nat.iter (List.length (qba s)) (deliver_ba P) s) = [].
Proof. rewrite (iter_skipn (deliver_ba P) qba) by (intros; apply deliver_ba_frame). apply skipn_all. Qed.
Lemma sync_closed P s : closed (sync P s) = closed s.
Proof.
  unfold sync. set (s1 := Nat.iter _ (deliver_ab P) s).
  transitivity (closed s1); apply (iter_pres (fun x => closed x = _)); try reflexivity; intros x <-.
  - apply deliver_ba_frame.
  - apply deliver_ab_frame.
Qed.

Lemma served_through c args md q : forall s, Inv s -> qba s = q ++ [MUse c args md] ->
  let s2 := run_from P0 s (repeat DeliverBA (S (List.length q))) in
  closed s2 = false /\ qba s2 = [] /\ errs s2 = O /\ exists pre, qab s2 = pre ++ [answer args md].
Proof.
  assert (St : forall s l, Inv s -> run_from P0 s (DeliverBA :: l) = run_from P0 (deliver_ba P0 s) l).
  { intros s l I. cbn [run_from fold_left]. unfold step at 2. now rewrite (i_open _ s I). }
  induction q as [|m q IH]; intros s I E; destruct (deliver_ba_spec s I) as (I' & A & _);
    destruct (deliver_ba_frame P0 s) as (_ & Q & _); rewrite E in *; cbn [List.length repeat]; rewrite St by exact I.
  - split; [apply I'|]. split; [exact Q|]. split; [apply I'|]. now exists (qab s).
  - now apply IH.
Qed.

(* C10 item 2'': a request through proxies the peer holds is served: it is sent, the owner works through its
   stream up to and including it without a KeyError, and the last thing the owner sends is the answer the callee
   determines -- not a refusal *)
Theorem use_is_served s c args md : Inv s -> (forall k, In k (c :: args) -> holds s k <> O) ->
  let s1 := step P0 (Use c args md) s in
  let s2 := run_from P0 s1 (repeat DeliverBA (List.length (qba s1))) in
  qba s1 = qba s ++ [MUse c args md] /\ closed s2 = false /\ qba s2 = [] /\ errs s2 = O /\
  exists pre, qab s2 = pre ++ [answer args md].
Proof.
  intros I Hh. cbn zeta.
  assert (E1 : step P0 (Use c args md) s = set_qba s (qba s ++ [MUse c args md])).
  { unfold step, use. rewrite (i_open _ s I). now rewrite (proj2 (all_held_spec s (c :: args)) Hh). }
  rewrite E1. set (s1 := set_qba s _).
  assert (I1 : Inv s1) by (apply post_ba_inv; cbn; easy).
  split; [reflexivity|]. cbn [qba s1 set_qba]. rewrite app_length, Nat.add_1_r.
  now apply (served_through c args md (qba s)).
Qed.

Lemma calm_valid o : calm_op o -> valid_op o.
Proof. destruct o; cbn; auto. Qed.

(* messages the peer consumes without a word; messages that leave no traceback behind *)
Definition reply_msg (m : msg) : Prop := match m with MReplyRef _ | MExc => True | _ => False end.
Definition calm_msg (m : msg) : Prop := match m with MCallRaise _ | MUse _ _ UBoom => False | _ => True end.
Lemma owner_answer_reply q : Forall reply_msg (owner_answer q).
Proof.
  destruct q as [|[| | | | | |c args md|] q]; cbn [owner_answer]; repeat constructor.
  unfold answer. destruct md, args; exact I.
Qed.

(* in a history in which no remote call raises, no traceback is kept on either side and a proxy lives only while
   the peer application holds it *)
Record quiet (s : st) : Prop := {
  q_pin : pin s = [];
  q_tbo : tbo s = [];
  q_ab : Forall calm_msg (qab s);
  q_ba : Forall calm_msg (qba s);
  q_held : forall k, holds s k = O -> prox s k = None
}.
Definition Calm (s : st) : Prop := Inv s /\ quiet s.

Lemma unbox_all_quiet s ks : ppos (prox s) -> quiet s -> quiet (unbox_all P0 s ks).
Proof.
  intros Hp [Qp Qt Qa Qb Qh]. rewrite unbox_all_eq. split; cbn; auto. (* q_held *) intros k Hk.
  pose proof (kept_spec ks (holds s) k) as A. destruct (unbox_spec ks (prox s) Hp) as [B C]. specialize (C k).
  pose proof (cnt_nonneg ks k). destruct (pz_cases _ k B) as [[? _]|[_ ?]]; [assumption|].
  rewrite Hk in A. rewrite (Qh k) in C by lia. cbn [pz] in C. lia.
Qed.

Lemma deliver_ab_calm s : Calm s -> Calm (deliver_ab P0 s).
Proof.
  intros [I Q]. split; [now apply deliver_ab_inv|]. unfold deliver_ab. destruct (qab s) as [|m q] eqn:E; [exact Q|].
  assert (Q' : quiet (set_qab s q) /\ calm_msg m).
  { destruct Q as [Qp Qt Qa Qb Qh]. rewrite E in Qa. split; [split; cbn; auto; (* q_ab *) now apply Forall_inv_tail in Qa|now apply Forall_inv in Qa]. }
  destruct Q' as [Q' Hm]. pose proof (i_ppos _ s I) as Hp.
  destruct m as [ks|ks|[r|]| | | | |]; cbn [serve_peer]; try exact Q'.
  - destruct (unbox_all_quiet (set_qab s q) ks Hp Q') as [Qp Qt Qa Qb Qh]. split; cbn; auto. (* q_ba *) now apply Forall_snoc.
  - destruct Hm.
  - now apply unbox_all_quiet.
Qed.
Lemma deliver_ba_calm s : Calm s -> Calm (deliver_ba P0 s).
Proof.
  intros [I [Qp Qt Qa Qb Qh]]. destruct (deliver_ba_spec s I) as (I' & A & B).
  destruct (deliver_ba_frame P0 s) as (_ & C & D & E & F). split; [exact I'|]. split.
  - (* q_pin *) now rewrite F.
  - (* q_tbo *) rewrite B. destruct (qba s) as [|[| | | | | |c args []|] q]; try exact Qt. now apply Forall_inv in Qb.
  - (* q_ab *) rewrite A. apply Forall_app. split; [exact Qa|]. apply (Forall_impl _ (P := reply_msg)); [now intros []|apply owner_answer_reply].
  - (* q_ba *) rewrite C. now apply Forall_tl.
  - (* q_held *) now rewrite D, E.
Qed.
Lemma sync_calm s : Calm s -> Calm (sync P0 s).
Proof. intros C. unfold sync. apply iter_pres; [apply deliver_ba_calm|]. apply iter_pres; [apply deliver_ab_calm|exact C]. Qed.

Lemma finalize_quiet j s : quiet s -> quiet (finalize P0 j s).
Proof.
  intros [Qp Qt Qa Qb Qh]. unfold finalize. destruct (prox s j) eqn:Er.
  - split; cbn; auto.
    + (* q_ba *) now apply Forall_snoc.
    + (* q_held *) intros k. destruct (Nat.eq_dec k j) as [->|Hne]; [now rewrite !upd_same|rewrite !upd_other by exact Hne; apply Qh].
  - split; cbn; auto.
    (* q_held *) intros k. destruct (Nat.eq_dec k j) as [->|Hne]; [intros _; exact Er|rewrite upd_other by exact Hne; apply Qh].
Qed.
Lemma release_quiet k s : quiet s -> release P0 k s = finalize P0 k s.
Proof. intros Q. unfold release. now rewrite (q_pin s Q). Qed.
Lemma drop_all_quiet k s : quiet s -> quiet (drop_all P0 k s).
Proof. intros Q. unfold drop_all. destruct (holds s k); [exact Q|rewrite release_quiet by exact Q; now apply finalize_quiet]. Qed.

Lemma send_quiet ks s : quiet s -> quiet (send P0 false ks s).
Proof. intros [Qp Qt Qa Qb Qh]. split; cbn; auto. (* q_ab *) now apply Forall_snoc. Qed.
Lemma drop_one_quiet k s : quiet s -> quiet (drop_one P0 k s).
Proof.
  intros Q. unfold drop_one. destruct (holds s k) as [|[|h]] eqn:Eh; [exact Q|rewrite release_quiet by exact Q; now apply finalize_quiet|].
  destruct Q as [Qp Qt Qa Qb Qh]. split; cbn; auto. (* q_held *) intros j. destruct (Nat.eq_dec j k) as [->|Hne]; [now rewrite upd_same|rewrite upd_other by exact Hne; apply Qh].
Qed.
Lemma use_quiet c args md s : md <> UBoom -> quiet s -> quiet (use c args md s).
Proof.
  intros Hmd Q. unfold use. destruct (all_held s (c :: args)); [|exact Q]. destruct Q as [Qp Qt Qa Qb Qh].
  split; cbn; auto. (* q_ba *) apply Forall_snoc; [exact Qb|now destruct md].
Qed.
Lemma forget_quiet k s : quiet s -> quiet (set_appref s (upd (appref s) k false)).
Proof. intros [Qp Qt Qa Qb Qh]. now split. Qed.

Lemma step_calm o s : calm_op o -> Calm s -> closed (step P0 o s) = false -> Calm (step P0 o s).
Proof.
  intros Hc [I Q] Ho. split.
  { pose proof (step_good o s (calm_valid o Hc)) as G. unfold Good in G. rewrite (i_open _ s I), Ho in G. now apply G. }
  unfold step in *. rewrite (i_open _ s I) in *. destruct o; try destruct Hc.
  - now apply send_quiet.
  - apply sync_calm. split; [now apply send_inv|now apply send_quiet].
  - now apply deliver_ab_calm.
  - now apply deliver_ba_calm.
  - now apply drop_one_quiet.
  - now apply drop_all_quiet.
  - apply use_quiet; [now intros ->|exact Q].
  - now apply forget_quiet.
  - now apply sync_calm.
  - (* Close: the resulting state is closed *) discriminate Ho.
Qed.
Lemma run_calm ops : Forall calm_op ops -> closed (run P0 ops) = false -> Calm (run P0 ops).
Proof.
  induction ops as [|o l IH] using rev_ind; intros Hc Ho; [split; [apply init_inv|split; cbn; auto]|].
  rewrite run_snoc in *. apply Forall_app in Hc as [Hl Hc]. apply step_calm; [now apply Forall_inv in Hc| |exact Ho].
  apply IH; [exact Hl|]. destruct (closed (run P0 l)) eqn:E; [|reflexivity].
  unfold step in Ho. rewrite E, (proj1 (step_closed_facts o _)) in Ho. congruence.
Qed.

Definition is_del (m : msg) : Prop := match m with MDel _ _ => True | _ => False end.
Definition norefs (q : list msg) : Prop := forall k, refs q k = 0.
(* the peer has consumed everything and has since sent nothing but release notices *)
Definition idle (s : st) : Prop := Calm s /\ qab s = [] /\ Forall is_del (qba s).

Lemma step_sync s : closed s = false -> step P0 Sync s = sync P0 s.
Proof. unfold step. now intros ->. Qed.

Lemma deliver_ab_reply P s : Forall reply_msg (qab s) ->
  Forall reply_msg (qab (deliver_ab P s)) /\ qba (deliver_ab P s) = qba s.
Proof.
  intros H. split.
  - rewrite (proj2 (deliver_ab_frame P s)). now apply Forall_tl.
  - unfold deliver_ab. destruct (qab s) as [|m q]; [reflexivity|]. apply Forall_inv in H.
    destruct m as [| |[r|]| | | | |]; try destruct H; cbn [serve_peer]; now rewrite ?unbox_all_eq.
Qed.
(* why two forced deliveries: the first leaves nothing in flight but answers of the owner, and those the peer
   consumes without a word *)
Lemma sync_answers s : Inv s -> Forall reply_msg (qab (sync P0 s)) /\ qba (sync P0 s) = [].
Proof.
  intros I. unfold sync. split; [|apply drain_ba].
  (* the invariant is carried along to know what the owner answers *)
  eapply proj2, (iter_pres (fun x => Inv x /\ Forall reply_msg (qab x))).
  - intros x [Ix Hx]. destruct (deliver_ba_spec x Ix) as (I' & -> & _). split; [exact I'|].
    apply Forall_app. split; [exact Hx|apply owner_answer_reply].
  - split; [apply iter_pres; [apply deliver_ab_inv|exact I]|]. rewrite drain_ab. constructor.
Qed.
Lemma sync_silent P s : Forall reply_msg (qab s) -> qba s = [] -> qab (sync P s) = [] /\ qba (sync P s) = [].
Proof.
  intros Ha Hb. unfold sync. set (s1 := Nat.iter _ (deliver_ab P) s).
  assert (H : Forall reply_msg (qab s1) /\ qba s1 = []).
  { apply (iter_pres (fun x => Forall reply_msg (qab x) /\ qba x = [])); [|now split].
    intros x [A B]. destruct (deliver_ab_reply P x A) as [A' B']. split; [exact A'|now rewrite B']. }
  rewrite (proj2 H). split; [apply drain_ab|apply H].
Qed.
Lemma sync_twice_idle s : Calm s -> idle (run_from P0 s [Sync; Sync]).
Proof.
  intros C. pose proof (sync_calm s C) as C1. cbn [run_from fold_left].
  rewrite (step_sync s) by apply C. rewrite (step_sync (sync P0 s)) by apply C1. split; [now apply sync_calm|].
  destruct (sync_answers s (proj1 C)) as [Ha Hb]. destruct (sync_silent P0 _ Ha Hb) as [-> ->]. split; [reflexivity|constructor].
Qed.

Lemma finalize_dels j s : Forall is_del (qba s) ->
  Forall is_del (qba (finalize P0 j s)) /\ forall k, k = j \/ prox s k = None -> prox (finalize P0 j s) k = None.
Proof.
  intros H. unfold finalize. destruct (prox s j) eqn:Er; cbn [del_msg p_del_src stdp]; cbn; split.
  - now apply Forall_snoc.
  - intros k Hk. destruct (Nat.eq_dec k j) as [->|Hne]; [apply upd_same|rewrite upd_other by exact Hne; tauto].
  - exact H.
  - now intros k [->|Hk].
Qed.
Lemma drop_all_idle k s : idle s ->
  idle (drop_all P0 k s) /\ forall j, j = k \/ prox s j = None -> prox (drop_all P0 k s) j = None.
Proof.
  intros ([I Q] & Ea & Hd).
  assert (E : holds s k = O /\ drop_all P0 k s = s \/ drop_all P0 k s = finalize P0 k s).
  { unfold drop_all. destruct (holds s k); [now left|right; now apply release_quiet]. }
  destruct E as [[Eh ->]| ->].
  - split; [exact (conj (conj I Q) (conj Ea Hd))|]. intros j [->|Hj]; [now apply (q_held s Q)|exact Hj].
  - destruct (finalize_dels k s Hd) as [A B]. destruct (finalize_frame P0 k s) as [_ Eq].
    split; [|exact B]. split; [split; [now apply finalize_inv|now apply finalize_quiet]|]. now rewrite Eq.
Qed.
Lemma drop_alls_idle ks : forall s, idle s -> let s' := run_from P0 s (map DropAll ks) in
  idle s' /\ forall k, In k ks \/ prox s k = None -> prox s' k = None.
Proof.
  induction ks as [|j r IH]; intros s C; cbn [map run_from fold_left]; [split; [exact C|now intros k [[]|H]]|].
  fold (run_from P0 (step P0 (DropAll j) s) (map DropAll r)). unfold step. rewrite (i_open _ s (proj1 (proj1 C))).
  destruct (drop_all_idle j s C) as [C1 P1]. destruct (IH _ C1) as [C' P']. split; [exact C'|]. intros k Hk. apply P'.
  destruct Hk as [[<-|Hk]|Hk].
  - right. apply P1. now left.
  - now left.
  - right. apply P1. now right.
Qed.

Lemma sync_idle s : idle s -> let s' := run_from P0 s [Sync] in
  Calm s' /\ qba s' = [] /\ norefs (qab s') /\ prox s' = prox s.
Proof.
  intros (C & Ea & Hd). cbn [run_from fold_left]. rewrite step_sync by apply C. split; [now apply sync_calm|].
  unfold sync. rewrite Ea. cbn [List.length Nat.iter nat_rect]. split; [apply drain_ba|].
  eapply proj2, proj2, (iter_pres (fun y => Inv y /\ Forall is_del (qba y) /\ norefs (qab y) /\ prox y = prox s)).
  - intros y (Iy & F1 & F2 & F3). destruct (deliver_ba_frame P0 y) as (_ & -> & -> & _).
    destruct (deliver_ba_spec y Iy) as (I' & -> & _). split; [exact I'|].
    split; [now apply Forall_tl|]. split; [|exact F3].
    intros k. rewrite refs_app, F2. destruct (qba y) as [|m q]; [reflexivity|]. apply Forall_inv in F1. now destruct m.
  - split; [apply C|]. split; [exact Hd|]. split; [now rewrite Ea|reflexivity].
Qed.

(* C10 item 3': constructive: from any open state of a history without raising calls, deliver everything, drop
   every proxy of ks, let the notices be served, and the entries are gone *)
Theorem release_after_drop s ks : Calm s ->
  let s' := run_from P0 s ([Sync; Sync] ++ map DropAll ks ++ [Sync]) in
  closed s' = false /\ qba s' = [] /\ norefs (qab s') /\
  forall k, In k ks -> prox s' k = None /\ slot s' k = None /\ alive s' k = appref s' k.
Proof.
  intros C. cbn zeta. rewrite !run_from_app.
  destruct (drop_alls_idle ks _ (sync_twice_idle s C)) as [C3 P3]. set (s3 := run_from P0 _ (map DropAll ks)) in *.
  destruct (sync_idle s3 C3) as ([I4 Q4] & B4 & A4 & P4). set (s4 := run_from P0 s3 [Sync]) in *.
  split; [apply I4|]. split; [exact B4|]. split; [exact A4|]. intros k Hk.
  assert (Pk : prox s4 k = None) by (rewrite P4; apply P3; now left).
  destruct (released_at_quiescence s4 k I4 (A4 k)) as [Sk Ak]; [now rewrite B4|exact Pk|].
  repeat split; auto. rewrite Ak, (q_tbo _ Q4). apply orb_false_r.
Qed.

(* C10 item 4: at the instant of closing (by either side, whatever happened before, also with a misbehaving peer):
   if the closing connection reaches its clear, every entry is gone *)
Theorem close_releases_now s b f : closed s = false -> close_reaches_clear P0 b f = true ->
  let s' := step P0 (Close b f) s in closed s' = true /\ forall k, slot s' k = None /\ alive s' k = appref s' k.
Proof.
  intros Ho Hr. unfold step. rewrite Ho. unfold close, cleanup, alive. cbn. rewrite Hr. cbn.
  split; [reflexivity|]. intros k. now rewrite !orb_false_r.
Qed.
Lemma step_closed_empty o s : sc = true -> closed s = true /\ (forall k, slot s k = None) ->
  closed (step P0 o s) = true /\ forall k, slot (step P0 o s) k = None.
Proof.
  intros Hsc [Hc Hs]. unfold step. rewrite Hc. destruct o; cbn [step_closed p_send_checks_closed stdp]; rewrite ?Hsc; now split.
Qed.
(* C10 item 4': when lending through a closed connection is refused before boxing, nothing comes back afterwards *)
Theorem close_stays_released s b f more : sc = true -> closed s = false -> close_reaches_clear P0 b f = true ->
  let s' := run_from P0 s (Close b f :: more) in closed s' = true /\ forall k, slot s' k = None.
Proof.
  intros Hsc Ho Hr. cbn [run_from fold_left]. apply (fold_left_inv _ (fun x => closed x = true /\ forall j, slot x j = None)).
  - intros x o _ H. now apply step_closed_empty.
  - destruct (close_releases_now s b f Ho Hr) as [A B]. split; [exact A|intros j; apply B].
Qed.

(* C10 item 5: a call whose arguments (or whose result) cannot all be boxed / encoded: harmless when what _box registered is
   given back *)
Theorem failed_send_harmless s ks c r k : fr = true -> closed s = false ->
  step P0 (SendFail ks) s = s /\ slot (step P0 (ReplyFail c r) s) k = slot (sync P0 (sync P0 s)) k.
Proof. intros -> H. unfold step. rewrite H. unfold reply_fail. split; [reflexivity|]. now destruct (_ && _). Qed.
(* C10 item 4'': a callee that closes the owner's connection and then returns an object by reference: nothing is registered when
   the reply path refuses before boxing *)
Theorem close_in_callee_releases s c r k : rc = true -> closed s = false ->
  closed (step P0 (CloseInCallee c r) s) = true -> slot (step P0 (CloseInCallee c r) s) k = None.
Proof.
  intros -> H. unfold step. rewrite H. unfold close_in_callee. destruct (_ && _); cbn; [reflexivity|].
  rewrite !sync_closed. congruence.
Qed.
End Std.
